(* Lemmas about Model/Winternitz.v: what [coef] extracts, digit strings and their positional value,
   and [digits] = the RFC's digits for every row whose indices fit the u16 arithmetic. *)
From HbsLms Require Import Base.Bytes Model.Consts Model.Winternitz Spec.Rfc8554Ots.
From HbsLms Require Import Model.Counter Proofs.CounterProofs.

Local Open Scope N_scope.

(* the Winternitz parameters of RFC 8554: a digit has w bits *)
Definition wok (w : N) : Prop := w = 1 \/ w = 2 \/ w = 4 \/ w = 8.
Definition wok_b (w : N) : bool := (w =? 1) || (w =? 2) || (w =? 4) || (w =? 8).

Lemma wok_b_spec w : wok_b w = true -> wok w.
Proof.
  unfold wok_b, wok. rewrite !orb_true_iff, !N.eqb_eq. tauto.
Qed.

(* the (w, v) pairs of the twelve LM-OTS parameter sets: v checksum digits of w bits *)
Definition wv_pairs : list (N * N) := [(1, 8); (1, 9); (2, 4); (2, 5); (4, 3); (8, 2)].

(* what most lemmas below use of [wok]: w divides 8 *)
Lemma wok_div w : wok w -> w * (8 / w) = 8.
Proof. intros [->|[->|[->| ->]]]; reflexivity. Qed.

Lemma wok_nz w : wok w -> w <> 0 /\ 8 / w <> 0.
Proof. intros Hw. pose proof (wok_div w Hw). generalize dependent (8 / w). nia. Qed.

(* digit j (most significant first) of byte b in base 2^w *)
Definition dig (w : N) (b : byte) (j : N) : N :=
  (b2n b / 2 ^ (w * (8 / w - 1 - j))) mod 2 ^ w.

Lemma coef_shift_spec i w :
  wok w -> i < 65536 -> coef_shift i w = w * (8 / w - 1 - i mod (8 / w)).
Proof.
  intros Hw Hi. unfold coef_shift. f_equal.
  (* 8 / w - 1 masks the 3, 2, 1 or 0 low bits; lia does the rest on the numerals *)
  destruct Hw as [->|[->|[->| ->]]].
  - rewrite (N.land_ones _ 3). change (8 / 1) with 8. lia.
  - rewrite (N.land_ones _ 2). change (8 / 2) with 4. lia.
  - rewrite (N.land_ones _ 1). change (8 / 4) with 2. lia.
  - rewrite (N.land_ones _ 0). change (8 / 8) with 1. lia.
Qed.

Lemma coef_index_spec i w : wok w -> coef_index i w = N.to_nat (i / (8 / w)).
Proof.
  intros Hw. destruct (wok_nz w Hw) as [Hw0 Hd0]. unfold coef_index. f_equal.
  rewrite <- (wok_div w Hw) at 1. rewrite (N.mul_comm i w). now apply N.div_mul_cancel_l.
Qed.

Lemma coef_mask_spec w : coef_mask w = 2 ^ w - 1.
Proof. unfold coef_mask. now rewrite N.shiftl_1_l. Qed.

Lemma coef_spec S i w :
  wok w -> i < 65536 ->
  coef S i w = dig w (nth (N.to_nat (i / (8 / w))) S x00) (i mod (8 / w)).
Proof.
  intros Hw Hi. unfold coef, dig.
  rewrite coef_shift_spec, coef_index_spec, coef_mask_spec by assumption.
  now rewrite land_pow2_m1, N.shiftr_div_pow2.
Qed.

Lemma coef_at S k j w :
  wok w -> j < 8 / w -> N.of_nat k * (8 / w) + j < 65536 ->
  coef S (N.of_nat k * (8 / w) + j) w = dig w (nth k S x00) j.
Proof.
  intros Hw Hj Hi. destruct (wok_nz w Hw) as [_ Hd]. rewrite coef_spec by assumption.
  rewrite N.div_add_l, N.div_small, N.add_0_r, Nat2N.id by assumption.
  now rewrite N.add_comm, N.mod_add, N.mod_small by assumption.
Qed.

Lemma coef_rfc S i w : wok w -> i < 65536 -> coef S i w = rfc_coef S i w.
Proof.
  intros Hw Hi. unfold coef, rfc_coef.
  rewrite coef_shift_spec, coef_mask_spec, N.land_comm by assumption.
  (* same byte, same mask; the shift amounts agree since w * (8 / w) = 8 *)
  do 2 f_equal. rewrite !N.mul_sub_distr_l, (wok_div w Hw).
  generalize (w * (i mod (8 / w))). lia.
Qed.

Lemma coef_bound S i w : coef S i w <= coef_mask w.
Proof. unfold coef. rewrite coef_mask_spec, land_pow2_m1. apply mod_pow2_le. Qed.

Lemma coef_app_l (Q T : bytes) i w :
  (coef_index i w < length Q)%nat -> coef (Q ++ T) i w = coef Q i w.
Proof. intros Hi. unfold coef. now rewrite app_nth1. Qed.

(* digits per byte; the digits of a byte and of a string, most significant first *)
Definition dn (w : N) : nat := N.to_nat (8 / w).
Definition byte_digits (w : N) (b : byte) : list N := map (dig w b) (nrange (dn w)).
Definition str_digits (w : N) (S : bytes) : list N := flat_map (byte_digits w) S.

Lemma nrange_length k : length (nrange k) = k.
Proof. unfold nrange. now rewrite map_length, seq_length. Qed.

Lemma nrange_app a b :
  nrange (a + b) = nrange a ++ map (fun i => N.of_nat a + i) (nrange b).
Proof.
  unfold nrange. rewrite seq_app, map_app. f_equal.
  generalize 0%nat. induction b as [|b IH]; intros s; [reflexivity|].
  cbn [seq map]. f_equal; [lia|]. change (S (s + a)) with (S s + a)%nat. apply IH.
Qed.

Lemma nrange_In k i : In i (nrange k) <-> i < N.of_nat k.
Proof.
  unfold nrange. rewrite in_map_iff. split.
  - intros [x [<- Hx]]. apply in_seq in Hx. lia.
  - exists (N.to_nat i). split; [lia|]. apply in_seq. lia.
Qed.

Lemma byte_digits_length w b : length (byte_digits w b) = dn w.
Proof. unfold byte_digits. now rewrite map_length, nrange_length. Qed.

Lemma str_digits_length w S : length (str_digits w S) = (length S * dn w)%nat.
Proof.
  induction S as [|b S IH]; [reflexivity|]. cbn [str_digits flat_map length].
  fold (str_digits w S). rewrite app_length, byte_digits_length. lia.
Qed.

Lemma dn_N w : N.of_nat (dn w) = 8 / w.
Proof. apply N2Nat.id. Qed.

(* the byte an index falls into, against whole numbers of bytes *)
Lemma coef_index_lt i w k : wok w -> i < N.of_nat (k * dn w) -> (coef_index i w < k)%nat.
Proof.
  intros Hw Hi. destruct (wok_nz w Hw) as [_ Hd]. rewrite coef_index_spec by assumption.
  rewrite Nat2N.inj_mul, dn_N, N.mul_comm in Hi. apply N.div_lt_upper_bound in Hi; [lia|assumption].
Qed.

Lemma coef_index_ge i w k : wok w -> N.of_nat (k * dn w) <= i -> (k <= coef_index i w)%nat.
Proof.
  intros Hw Hi. destruct (wok_nz w Hw) as [_ Hd]. rewrite coef_index_spec by assumption.
  rewrite Nat2N.inj_mul, dn_N, N.mul_comm in Hi. apply N.div_le_lower_bound in Hi; [lia|assumption].
Qed.

Lemma dn_mul w k : wok w -> N.to_nat ((N.of_nat k * 8) / w) = (k * dn w)%nat.
Proof.
  intros Hw. destruct (wok_nz w Hw) as [Hw0 _].
  rewrite <- (wok_div w Hw) at 1. rewrite (N.mul_comm w), N.mul_assoc, N.div_mul, <- dn_N by assumption.
  lia.
Qed.

Lemma str_digits_app w A B : str_digits w (A ++ B) = str_digits w A ++ str_digits w B.
Proof. apply flat_map_app. Qed.

Lemma map_coef_str w S :
  wok w -> N.of_nat (length S) * (8 / w) < 65536 ->
  map (fun i => coef S i w) (nrange (length S * dn w)) = str_digits w S.
Proof.
  intros Hw. pose proof (dn_N w) as Hd.
  induction S as [|b S IH] using rev_ind; intros Hl; [reflexivity|].
  rewrite app_length in Hl. cbn [length] in Hl.
  rewrite app_length, Nat.mul_add_distr_r, nrange_app, map_app, map_map, str_digits_app.
  rewrite <- IH by nia. f_equal.
  - apply map_ext_in. intros i Hi. apply nrange_In in Hi.
    now apply coef_app_l, coef_index_lt.
  - cbn [length str_digits flat_map]. rewrite app_nil_r, Nat.mul_1_l. apply map_ext_in. intros j Hj.
    apply nrange_In in Hj. rewrite Nat2N.inj_mul, Hd, coef_at by (assumption || lia).
    now rewrite nth_middle.
Qed.

Lemma map_nrange_firstn {A} (f : N -> A) k m :
  (k <= m)%nat -> map f (nrange k) = firstn k (map f (nrange m)).
Proof.
  intros H. replace m with (k + (m - k))%nat by lia. rewrite nrange_app, map_app.
  rewrite firstn_app, map_length, nrange_length, Nat.sub_diag.
  rewrite app_nil_r. rewrite firstn_all2; [reflexivity|]. now rewrite map_length, nrange_length.
Qed.

Lemma cksm_sum_defect n w Q :
  wok w ->
  cksm_sum n w Q + sumN (map (fun i => coef Q i w) (nrange (n * dn w)))
  = coef_mask w * N.of_nat (n * dn w).
Proof.
  intros Hw. unfold cksm_sum. rewrite dn_mul, fold_add_sum, N.add_0_l by assumption.
  rewrite <- (map_map (fun i => coef Q i w) (fun d => coef_mask w - d)), sum_defect.
  - now rewrite map_length, nrange_length.
  - apply Forall_forall. intros d Hd. apply in_map_iff in Hd. destruct Hd as [i [<- _]]. apply coef_bound.
Qed.

(* value of a digit list in base B, most significant first *)
Definition val (B : N) (ds : list N) : N := fold_left (fun acc d => acc * B + d) ds 0.

Lemma val_mono_acc B d1 d2 a1 a2 :
  Forall2 N.le d1 d2 -> a1 <= a2 ->
  fold_left (fun acc d => acc * B + d) d1 a1 <= fold_left (fun acc d => acc * B + d) d2 a2.
Proof.
  intros F; revert a1 a2; induction F as [|x y l l' Hxy _ IH]; intros a1 a2 Ha; [exact Ha|].
  apply IH. nia.
Qed.

Lemma val_mono B d1 d2 : Forall2 N.le d1 d2 -> val B d1 <= val B d2.
Proof. intros F. apply val_mono_acc; [assumption|lia]. Qed.

Lemma val_acc B ds a :
  fold_left (fun acc d => acc * B + d) ds a = a * B ^ N.of_nat (length ds) + val B ds.
Proof.
  unfold val. revert a; induction ds as [|d ds IH]; intros a; cbn [fold_left length].
  - change (B ^ N.of_nat 0) with 1. lia.
  - rewrite IH, (IH (0 * B + d)), Nat2N.inj_succ, N.pow_succ_r'. ring.
Qed.

Lemma val_app B a b : val B (a ++ b) = val B a * B ^ N.of_nat (length b) + val B b.
Proof. unfold val at 1. rewrite fold_left_app. apply val_acc. Qed.

Lemma val_lt B ds :
  0 < B -> Forall (fun d => d <= B - 1) ds -> val B ds < B ^ N.of_nat (length ds).
Proof.
  intros HB F. induction F as [|d ds Hd _ IH]; [cbn; lia|].
  change (d :: ds) with ([d] ++ ds). rewrite val_app. change (val B [d]) with (0 * B + d).
  cbn [length app]. rewrite Nat2N.inj_succ, N.pow_succ_r'. nia.
Qed.

Lemma val_firstn B ds k :
  0 < B -> Forall (fun d => d <= B - 1) ds ->
  val B (firstn k ds) = val B ds / B ^ N.of_nat (length ds - k).
Proof.
  intros HB F. rewrite <- (firstn_skipn k ds) at 2. rewrite val_app, skipn_length.
  rewrite N.div_add_l by (apply N.pow_nonzero; lia).
  rewrite N.div_small; [lia|]. rewrite <- skipn_length. apply val_lt; [assumption|].
  rewrite <- (firstn_skipn k ds) in F. now apply Forall_app in F.
Qed.

Lemma val_digits B x k :
  0 < B ->
  val B (map (fun j => (x / B ^ (N.of_nat k - 1 - j)) mod B) (nrange k)) = x mod B ^ N.of_nat k.
Proof.
  intros HB. revert x. induction k as [|k IH]; intros x; [now rewrite N.mod_1_r|].
  unfold nrange. rewrite seq_S, !map_app, val_app. cbn [Nat.add map length].
  (* all but the last are the k low digits of x / B *)
  rewrite (map_ext_in _ (fun j => (x / B / B ^ (N.of_nat k - 1 - j)) mod B)).
  2:{ intros j Hj. apply nrange_In in Hj. rewrite N.div_div, <- N.pow_succ_r' by (try apply N.pow_nonzero; lia).
      do 3 f_equal. lia. }
  rewrite IH. replace (N.of_nat (S k) - 1 - N.of_nat k) with 0 by lia.
  change (val B [(x / B ^ 0) mod B]) with (0 * B + (x / 1) mod B).
  rewrite (Nat2N.inj_succ k), N.pow_succ_r', N.mod_mul_r, N.div_1_r, N.pow_1_r by (try apply N.pow_nonzero; lia).
  lia.
Qed.

Lemma byte_digits_bound w b : Forall (fun d => d <= 2 ^ w - 1) (byte_digits w b).
Proof.
  unfold byte_digits. apply Forall_forall. intros d Hd. apply in_map_iff in Hd.
  destruct Hd as [j [<- _]]. apply mod_pow2_le.
Qed.

Lemma str_digits_bound w S : Forall (fun d => d <= 2 ^ w - 1) (str_digits w S).
Proof.
  induction S as [|b S IH]; [constructor|].
  apply Forall_app. split; [apply byte_digits_bound|exact IH].
Qed.

Lemma pow_dn w : wok w -> (2 ^ w) ^ N.of_nat (dn w) = 256.
Proof. intros Hw. now rewrite <- N.pow_mul_r, dn_N, wok_div. Qed.

Lemma byte_digits_val w b : wok w -> val (2 ^ w) (byte_digits w b) = b2n b.
Proof.
  intros Hw. unfold byte_digits.
  rewrite (map_ext (dig w b) (fun j => (b2n b / (2 ^ w) ^ (N.of_nat (dn w) - 1 - j)) mod 2 ^ w))
    by (intros j; unfold dig; now rewrite dn_N, N.pow_mul_r).
  rewrite val_digits, pow_dn by (assumption || apply pow2_pos). apply N.mod_small, b2n_lt.
Qed.

Lemma val_str_digits w S : wok w -> val (2 ^ w) (str_digits w S) = be_dec S.
Proof.
  intros Hw. induction S as [|b S IH]; [reflexivity|].
  cbn [str_digits flat_map]. fold (str_digits w S).
  rewrite val_app, IH, byte_digits_val, str_digits_length by assumption.
  change (be_dec (b :: S)) with (be_dec_acc (0 * 256 + b2n b) S). rewrite be_dec_acc_spec.
  rewrite Nat2N.inj_mul, (N.mul_comm (N.of_nat (length S))), N.pow_mul_r, pow_dn by assumption. lia.
Qed.

Lemma str_digits_inj w S1 S2 :
  wok w -> length S1 = length S2 -> str_digits w S1 = str_digits w S2 -> S1 = S2.
Proof.
  intros Hw El E. rewrite <- (be_be_dec S1), <- (be_be_dec S2), El.
  now rewrite <- !(val_str_digits w), E by assumption.
Qed.

Lemma val_firstn_str w S k :
  wok w ->
  val (2 ^ w) (firstn k (str_digits w S)) = be_dec S / 2 ^ (w * N.of_nat (length S * dn w - k)).
Proof.
  intros Hw.
  rewrite val_firstn, val_str_digits, str_digits_length
    by (assumption || apply pow2_pos || apply str_digits_bound).
  now rewrite N.pow_mul_r.
Qed.

(* [digits] rebuilds Q || Cksm(Q) for every index.  This form, convertible with it, builds the
   string once: the one to evaluate on a concrete digest ([change digits with digits_once]). *)
Definition digits_once (n : nat) (prm : otsp) (Q : bytes) : list N :=
  let S := append_checksum n prm Q in map (fun i => coef S i (o_w prm)) (nrange (o_p prm)).

Lemma checksum_lt n prm Q : checksum n prm Q < 65536.
Proof. now apply N.mod_lt. Qed.

Lemma append_checksum_be n prm Q : append_checksum n prm Q = Q ++ be 2 (checksum n prm Q).
Proof. now rewrite be2_spec. Qed.

(* The three lemmas below ask only that every index handed to [coef] fits the u16 arithmetic;
   the shift [o_ls prm] is whatever the row carries. *)
Lemma fold_rfc_sum w Q k :
  wok w -> N.of_nat k <= 65536 ->
  fold_left (fun acc i => acc + (coef_mask w - coef Q i w)) (nrange k) 0 = rfc_sum Q w k.
Proof.
  intros Hw. induction k as [|k IH]; intros Hk; [reflexivity|].
  unfold nrange. rewrite seq_S, map_app, fold_left_app. fold (nrange k). rewrite IH by lia.
  cbn [Nat.add map fold_left rfc_sum]. now rewrite coef_mask_spec, coef_rfc by (assumption || lia).
Qed.

Lemma checksum_rfc n prm Q :
  wok (o_w prm) -> N.of_nat n * (8 / o_w prm) <= 65536 ->
  checksum n prm Q = rfc_cksm (N.of_nat n) (o_w prm) (o_ls prm) Q.
Proof.
  intros Hw Hn. unfold checksum, rfc_cksm, cksm_sum.
  rewrite N.shiftl_mul_pow2, fold_rfc_sum; [reflexivity|assumption|].
  rewrite dn_mul, Nat2N.inj_mul, dn_N by assumption. exact Hn.
Qed.

Theorem digits_rfc_gen n prm Q :
  wok (o_w prm) -> N.of_nat n * (8 / o_w prm) <= 65536 -> N.of_nat (o_p prm) <= 65536 ->
  digits n prm Q = rfc_digits (N.of_nat n) (o_w prm) (o_ls prm) (N.of_nat (o_p prm)) Q.
Proof.
  intros Hw Hn Hp. unfold digits, rfc_digits.
  rewrite append_checksum_be, checksum_rfc, Nat2N.id by assumption. unfold nrange. rewrite map_map.
  apply map_ext_in. intros i Hi. apply in_seq in Hi. apply coef_rfc; [assumption|lia].
Qed.
