(* The model's verifier (cursor parsers + lms_verify + verify_chain, i.e. the code's
   hss::verify) accepts EXACTLY the triples that RFC 8554 section 6.3 / Algorithms 6, 6a, 4b
   accept, for every byte string, every hash with n-byte output and every table of parameter
   rows that is injective on type codes.  The RFC side is Spec/Rfc8554.v (slicing by offsets,
   written from the RFC text); the tables handed to it are the ones of the code under test, so
   the statement is independent of the known checksum-shift deviation (C12 decides separately
   which rows are the RFC's). *)
From HbsLms Require Import Base.Bytes Model.Consts Model.Winternitz Model.Lmots Model.Lms
     Model.Codec Model.Hss.
From HbsLms Require Import Spec.Rfc8554Ots Spec.Rfc8554.
From HbsLms Require Import Proofs.WinternitzProofs
     Proofs.CodecProofs Proofs.VerifyProofs Proofs.RfcCore Proofs.SubLemmas.

Local Open Scope N_scope.

(* digits = RFC digits under the weak row conditions (w in {1,2,4,8}, indices fit in u16);
   no condition on ls: the checksum is "sum << ls" with whatever ls the row carries *)
Definition row_ok (n : nat) (prm : otsp) : bool :=
  wok_b (o_w prm) && (N.of_nat (n + 2) * (8 / o_w prm) <? 65536) && (N.of_nat (o_p prm) <? 65536).

Section DigitsWeak.
  Variable n : nat.
  Variable prm : otsp.
  Hypothesis OK : row_ok n prm = true.

  Lemma row_ok_split :
    wok_b (o_w prm) = true /\ N.of_nat (n + 2) * (8 / o_w prm) < 65536 /\ N.of_nat (o_p prm) < 65536.
  Proof.
    pose proof OK as R. apply andb_prop in R as [[Hw Hl%N.ltb_lt]%andb_prop Hp%N.ltb_lt].
    exact (conj Hw (conj Hl Hp)).
  Qed.

  Lemma rk_w : wok (o_w prm).
  Proof. apply wok_b_spec, row_ok_split. Qed.
  Lemma rk_len : N.of_nat (n + 2) * (8 / o_w prm) < 65536.
  Proof. apply row_ok_split. Qed.
  Lemma rk_p : N.of_nat (o_p prm) < 65536.
  Proof. apply row_ok_split. Qed.

  Theorem digits_rfc_w Q :
    digits n prm Q = rfc_digits (N.of_nat n) (o_w prm) (o_ls prm) (N.of_nat (o_p prm)) Q.
  Proof.
    pose proof rk_len as Hlen. pose proof rk_p as Hp.
    apply digits_rfc_gen; [apply rk_w | nia | lia].
  Qed.
End DigitsWeak.

(* side conditions on the type-code tables: a row's type id is the code it is found under
   (so equal rows <=> equal codes), its digit computation fits the u16 index arithmetic, and
   tree heights fit the 32-bit leaf index.  Decidable: the tables are finite. *)
Definition tables_ok (K : consts) (n : nat) : bool :=
  forallb (fun code => match ots_of_type K n code with
                       | Some prm => (o_type prm =? code) && row_ok n prm
                       | None => true end) (map fst (c_ots_get_from_type K))
  && forallb (fun code => match lms_of_type K code with
                          | Some lp => (l_type lp =? code) && Nat.leb (l_h lp) 32
                          | None => true end) (map fst (c_lms_get_from_type K)).

Lemma assoc_key {A} k (l : list (N * A)) v : assoc k l = Some v -> In k (map fst l).
Proof. intros E. apply assoc_In in E. apply (in_map fst) in E. exact E. Qed.

(* a check made for every key of a table holds of the key under which a row is found *)
Lemma forallb_assoc {A B} (f : N -> bool) (l : list (N * A)) (g : A -> option B) code b :
  match assoc code l with Some v => g v | None => None end = Some b ->
  forallb f (map fst l) = true -> f code = true.
Proof.
  intros E F. rewrite forallb_forall in F. apply F.
  destruct (assoc code l) eqn:A0; [|discriminate]. eapply assoc_key, A0.
Qed.

(* rows that a table returns under their own type code are equal as soon as their codes are *)
Lemma eqb_code {A} (code : A -> N) (look : N -> option A) (eqb : A -> A -> bool)
      (eqb_eq : forall a b, eqb a b = true <-> a = b) a b :
  look (code a) = Some a -> look (code b) = Some b -> (code a =? code b) = eqb a b.
Proof.
  intros Ea Eb. destruct (N.eqb_spec (code a) (code b)) as [E|E].
  - rewrite E, Eb in Ea. injection Ea as ->. symmetry. now apply eqb_eq.
  - destruct (eqb a b) eqn:X; [|reflexivity]. apply eqb_eq in X. now subst.
Qed.

Section Equiv.
  Variable K : consts.
  Variable n : nat.
  Variable H : bytes -> bytes.
  Hypothesis H_len : forall x, length (H x) = n.
  Hypothesis RFC : consts_rfc K = true.
  Hypothesis TBL : tables_ok K n = true.

  Lemma tbl_ots code prm : ots_of_type K n code = Some prm -> o_type prm = code /\ row_ok n prm = true.
  Proof.
    intros E. pose proof TBL as T. apply andb_prop in T as [T _].
    apply (forallb_assoc _ _ _ code prm E) in T. cbv beta in T. rewrite E in T.
    apply andb_prop in T as [T1%N.eqb_eq T2]. exact (conj T1 T2).
  Qed.

  Lemma tbl_lms code lp : lms_of_type K code = Some lp -> l_type lp = code /\ (l_h lp <= 32)%nat.
  Proof.
    intros E. pose proof TBL as T. apply andb_prop in T as [_ T].
    apply (forallb_assoc _ _ _ code lp E) in T. cbv beta in T. rewrite E in T.
    apply andb_prop in T as [T1%N.eqb_eq T2%Nat.leb_le]. exact (conj T1 T2).
  Qed.

  Lemma ilen16 : c_ilen K = 16%nat.
  Proof. exact (rfc_ilen (rfc_fields K RFC)). Qed.

  (* the tables handed to the RFC transcription: typecode -> (w, p, ls) and typecode -> h *)
  Definition ots_tbl_of (code : N) : option (N * N * N) :=
    match ots_of_type K n code with
    | Some prm => Some (o_w prm, N.of_nat (o_p prm), o_ls prm)
    | None => None
    end.
  Definition lms_tbl_of (code : N) : option N :=
    match lms_of_type K code with
    | Some lp => Some (N.of_nat (l_h lp))
    | None => None
    end.

  (* the byte strings of a parsed signature: the LM-OTS signature of RFC 8554 section 4.5 and the
     LMS signature of section 5.4 *)
  Definition ser_ots (s : lms_sig) : bytes := be 4 (o_type (s_ots s)) ++ s_C s ++ concat (s_y s).
  Definition ser_lms (s : lms_sig) : bytes :=
    be 4 (s_q s) ++ ser_ots s ++ be 4 (l_type (s_lms s)) ++ concat (s_path s).

  Definition sig_wf (s : lms_sig) : Prop :=
    wf_ots K n (s_ots s) /\ wf_lms K (s_lms s)
    /\ s_q s < 2 ^ N.of_nat (l_h (s_lms s))
    /\ length (s_C s) = n
    /\ length (s_y s) = o_p (s_ots s) /\ Forall (fun y => length y = n) (s_y s)
    /\ length (s_path s) = l_h (s_lms s) /\ Forall (fun y => length y = n) (s_path s).

  Definition pk_wf (key : lms_pk) : Prop :=
    wf_ots K n (p_ots key) /\ wf_lms K (p_lms key)
    /\ length (p_I key) = 16%nat /\ length (p_key key) = n
    /\ p_raw key = lms_pk_bytes (p_ots key) (p_lms key) (p_I key) (p_key key).

  Lemma wf_ots_of code prm : ots_of_type K n code = Some prm -> code < 4294967296 -> wf_ots K n prm.
  Proof. intros E Hc. destruct (tbl_ots code prm E) as [T _]. unfold wf_ots. rewrite T. now split. Qed.

  Lemma wf_lms_of code lp : lms_of_type K code = Some lp -> code < 4294967296 -> wf_lms K lp.
  Proof. intros E Hc. destruct (tbl_lms code lp E) as [T Hh]. unfold wf_lms. rewrite T. repeat split; assumption. Qed.

  Lemma ser_ots_length s : sig_wf s -> length (ser_ots s) = (4 + n * (o_p (s_ots s) + 1))%nat.
  Proof.
    intros (_ & _ & _ & LC & Ly & Fy & _). unfold ser_ots.
    rewrite !app_length, !be_length, (concat_length_const n _ Fy), Ly. lia.
  Qed.

  Lemma ser_lms_length s : sig_wf s ->
    length (ser_lms s) = (12 + n * (o_p (s_ots s) + 1) + n * l_h (s_lms s))%nat.
  Proof.
    intros W. pose proof (ser_ots_length s W) as Lo. destruct W as (_ & _ & _ & _ & _ & _ & Lp & Fp).
    unfold ser_lms. rewrite !app_length, !be_length, (concat_length_const n _ Fp). lia.
  Qed.

  Lemma parse_lms_sig_ser s rest : sig_wf s -> parse_lms_sig K n (ser_lms s ++ rest) = Ok (s, rest).
  Proof.
    intros [Wo [Wl [Hq [LC [Ly [Fy [Lp Fp]]]]]]]. unfold ser_lms, ser_ots.
    rewrite <- !app_assoc.
    pose proof (parse_lms_sig_roundtrip K n (s_ots s) (s_lms s) (s_q s) (s_C s) (s_y s) (s_path s) rest
                  Wo Wl Hq LC Ly Fy Lp Fp) as R.
    rewrite <- !app_assoc in R. rewrite R. destruct s; reflexivity.
  Qed.

  (* [Proof using], here and for [parse_lms_pk_inv] and [split3]: the closed statement takes [H_len]
     like the other lemmas of the section, though the proof does not use it *)
  Lemma parse_lms_sig_inv data s rest :
    parse_lms_sig K n data = Ok (s, rest) -> sig_wf s /\ data = ser_lms s ++ rest.
  Proof using H_len TBL.
    intros E. apply parse_lms_sig_Ok in E as (qb & tb & lb & L1 & L2 & L3 & Eq & EO & EL & SH & ->).
    destruct (be4_of_dec qb L1) as [Bq _], (be4_of_dec tb L2) as [Bt Bt'], (be4_of_dec lb L3) as [Bl Bl'].
    destruct (tbl_ots _ _ EO) as [To _], (tbl_lms _ _ EL) as [Tl _]. split.
    - split; [eapply wf_ots_of; eassumption|]. split; [eapply wf_lms_of; eassumption|exact SH].
    - unfold ser_lms, ser_ots. rewrite To, Tl, Eq, Bq, Bt, Bl. now rewrite <- !app_assoc.
  Qed.

  Lemma parse_lms_pk_ser key rest : pk_wf key -> parse_lms_pk K n (p_raw key ++ rest) = Ok (key, rest).
  Proof.
    intros [Wo [Wl [LI [LK R]]]]. rewrite R.
    rewrite (parse_lms_pk_roundtrip K n (p_ots key) (p_lms key) (p_I key) (p_key key) rest Wo Wl)
      by (rewrite ?ilen16; assumption).
    rewrite <- R. destruct key; reflexivity.
  Qed.

  Lemma parse_lms_pk_inv data key rest :
    parse_lms_pk K n data = Ok (key, rest) -> pk_wf key /\ data = p_raw key ++ rest.
  Proof using H_len RFC TBL.
    intros E. apply parse_lms_pk_Ok in E as (lb & tb & L1 & L2 & EL & EO & LI & LK & ER & ->).
    destruct (be4_of_dec lb L1) as [Bl Bl'], (be4_of_dec tb L2) as [Bt Bt'].
    destruct (tbl_ots _ _ EO) as [To _], (tbl_lms _ _ EL) as [Tl _]. rewrite ilen16 in LI.
    split; [|reflexivity].
    split; [eapply wf_ots_of; eassumption|]. split; [eapply wf_lms_of; eassumption|].
    split; [assumption|]. split; [assumption|].
    unfold lms_pk_bytes. now rewrite To, Tl, Bl, Bt.
  Qed.

  Lemma ots_candidate_rfc I q prm C ys msg :
    row_ok n prm = true -> length I = 16%nat -> length ys = o_p prm -> Forall (fun y => length y = n) ys ->
    ots_candidate K n H I q prm C ys msg =
    let Q := H (I ++ u32str q ++ u16str D_MESG ++ C ++ msg) in
    let QC := Q ++ u16str (rfc_cksm (N.of_nat n) (o_w prm) (o_ls prm) Q) in
    H (I ++ u32str q ++ u16str D_PBLC ++
       concat (map (fun i => let a := rfc_coef QC (N.of_nat i) (o_w prm) in
                             hchain H I q (N.of_nat i) a (N.to_nat (2 ^ (o_w prm) - 1 - a)) (nth i ys []))
                   (seq 0 (o_p prm)))).
  Proof.
    intros OK LI Ly Fy. unfold ots_candidate, ots_msg_hash.
    rewrite (rfc_d_pblc (rfc_fields K RFC)), (rfc_d_mesg (rfc_fields K RFC)).
    rewrite (digits_rfc_w n prm OK). unfold rfc_digits. rewrite Nat2N.id. unfold nrange.
    (* the signature's [ys] (not the one under [nth]) as a map over the indices; the obvious way
       ([rewrite .. at 1]) goes through the setoid machinery and is slow to check *)
    set (ys' := ys) at 1.
    replace ys' with (map (fun i => nth i ys []) (seq 0 (o_p prm))) by (rewrite <- Ly; apply map_nth_seq).
    rewrite combine_map_map, combine_map_map, map_map.
    erewrite map_ext_in; [reflexivity|]. intros i Hi%in_seq.
    apply (chain_rfc K n H H_len RFC); [assumption|]. apply (proj1 (Forall_nth _ _) Fy). lia.
  Qed.

  Lemma ots_tbl_wf prm : wf_ots K n prm -> ots_tbl_of (o_type prm) = Some (o_w prm, N.of_nat (o_p prm), o_ls prm).
  Proof. intros [E _]. unfold ots_tbl_of. now rewrite E. Qed.

  Lemma lms_tbl_wf lp : wf_lms K lp -> lms_tbl_of (l_type lp) = Some (N.of_nat (l_h lp)).
  Proof. intros [E _]. unfold lms_tbl_of. now rewrite E. Qed.

  Lemma ser_ots_type s : sub (ser_ots s) 0 4 = be 4 (o_type (s_ots s)).
  Proof. unfold ser_ots. now read_piece. Qed.

  Lemma ser_ots_C s : length (s_C s) = n -> sub (ser_ots s) 4 (4 + n) = s_C s.
  Proof. intros LC. unfold ser_ots. now read_piece. Qed.

  Lemma ser_ots_y s i :
    length (s_C s) = n -> Forall (fun y => length y = n) (s_y s) -> (i < length (s_y s))%nat ->
    sub (ser_ots s) (4 + n + n * i) (4 + n + n * (i + 1)) = nth i (s_y s) [].
  Proof.
    intros LC Fy Hi. unfold ser_ots.
    rewrite <- (app_nil_r (concat _)), !sub_app_r by (rewrite ?be_length; lia).
    apply (sub_concat_nth n); rewrite ?be_length; (assumption || lia).
  Qed.

  Lemma ser_lms_q s : sub (ser_lms s) 0 4 = be 4 (s_q s).
  Proof. unfold ser_lms. now read_piece. Qed.

  Lemma ser_lms_ots_type s : sub (ser_lms s) 4 8 = be 4 (o_type (s_ots s)).
  Proof. unfold ser_lms, ser_ots. rewrite <- !app_assoc. now read_piece. Qed.

  (* [np]: the length of the LM-OTS signature without its type code, n * (p + 1) *)
  Lemma ser_lms_ots s np : length (ser_ots s) = (4 + np)%nat -> sub (ser_lms s) 4 (8 + np) = ser_ots s.
  Proof. intros Lo. unfold ser_lms. now read_piece. Qed.

  Lemma ser_lms_type s np :
    length (ser_ots s) = (4 + np)%nat -> sub (ser_lms s) (8 + np) (12 + np) = be 4 (l_type (s_lms s)).
  Proof. intros Lo. unfold ser_lms. now read_piece. Qed.

  Lemma ser_lms_path s np i :
    length (ser_ots s) = (4 + np)%nat -> Forall (fun y => length y = n) (s_path s) -> (i < length (s_path s))%nat ->
    sub (ser_lms s) (12 + np + n * i) (12 + np + n * (i + 1)) = nth i (s_path s) [].
  Proof.
    intros Lo Fp Hi. unfold ser_lms.
    rewrite <- (app_nil_r (concat _)), !sub_app_r by (rewrite ?be_length; lia).
    apply (sub_concat_nth n); rewrite ?be_length; (assumption || lia).
  Qed.

  Lemma alg4b_ser s I q msg :
    sig_wf s -> length I = 16%nat ->
    alg4b n H ots_tbl_of (o_type (s_ots s)) I q (ser_ots s) msg
    = Some (ots_candidate K n H I q (s_ots s) (s_C s) (s_y s) msg).
  Proof.
    intros W LI. pose proof (ser_ots_length s W) as L.
    destruct W as (Wo & _ & _ & LC & Ly & Fy & _).
    destruct (tbl_ots _ _ (proj1 Wo)) as [_ OK].
    unfold alg4b. rewrite L, ser_ots_type, (ser_ots_C s LC).
    unfold strTou32. rewrite (be4_dec _ (proj2 Wo)), N.eqb_refl, (ots_tbl_wf _ Wo), Nat2N.id, Nat.eqb_refl.
    rewrite (ots_candidate_rfc I q (s_ots s) (s_C s) (s_y s) msg OK LI Ly Fy).
    cbn [negb]. erewrite map_ext_in; [reflexivity|]. intros i Hi%in_seq.
    cbv beta. f_equal. apply ser_ots_y; (assumption || lia).
  Qed.

  Lemma q_lt32 s : sig_wf s -> s_q s < 4294967296.
  Proof.
    intros [_ [[_ [_ Hh]] [Hq _]]]. eapply N.lt_le_trans; [exact Hq|].
    change 4294967296 with (2 ^ 32). apply N.pow_le_mono_r; lia.
  Qed.

  Lemma alg6a_ser s lt ot I msg :
    sig_wf s -> length I = 16%nat ->
    alg6a n H ots_tbl_of lms_tbl_of lt ot I (ser_lms s) msg
    = if (o_type (s_ots s) =? ot) && (l_type (s_lms s) =? lt)
      then Some (lms_candidate K n H I (s_ots s) (s_lms s) (s_q s) (s_C s) (s_y s) (s_path s) msg)
      else None.
  Proof.
    intros W LI. pose proof (ser_lms_length s W) as L. pose proof (ser_ots_length s W) as Lo.
    pose proof (q_lt32 s W) as Hq32. pose proof (alg4b_ser s I (s_q s) msg W LI) as A4.
    destruct W as (Wo & Wl & Hq & LC & Ly & Fy & Lp & Fp).
    set (np := (n * (o_p (s_ots s) + 1))%nat) in *.
    unfold alg6a. rewrite L, ser_lms_q, ser_lms_ots_type. unfold strTou32.
    rewrite (be4_dec _ Hq32), (be4_dec _ (proj2 Wo)).
    (* step 2: q and the LM-OTS type code *)
    destruct (Nat.ltb_spec (12 + np + n * l_h (s_lms s)) 8); [lia|].
    destruct (N.eqb_spec (o_type (s_ots s)) ot) as [<-|Hne]; cbn [negb andb]; [|reflexivity].
    rewrite (ots_tbl_wf _ Wo), Nat2N.id. fold np.
    (* the LMS type code behind the LM-OTS signature *)
    destruct (Nat.ltb_spec (12 + np + n * l_h (s_lms s)) (12 + np)); [lia|].
    rewrite (ser_lms_type s np Lo), (be4_dec _ (proj1 (proj2 Wl))).
    destruct (N.eqb_spec (l_type (s_lms s)) lt) as [<-|Hne]; [|reflexivity].
    (* leaf number in range, exact length *)
    rewrite (lms_tbl_wf _ Wl), Nat2N.id, Nat.eqb_refl, (ser_lms_ots s np Lo), A4.
    destruct (N.leb_spec (2 ^ N.of_nat (l_h (s_lms s))) (s_q s)); [lia|]. cbn [negb orb].
    (* steps 3 and 4: Algorithm 4b gave the model's candidate; the climb to the root *)
    f_equal. unfold lms_candidate. rewrite (leaf_hash_rfc K H RFC).
    symmetry. rewrite <- Lp. apply (climb_rfc K n H H_len RFC).
    - intros k Hk. now apply ser_lms_path.
    - trivial.
    - rewrite Lp. rewrite Nat2N.inj_succ, N.pow_succ_r'. lia.
  Qed.

  (* whatever Algorithm 6a accepts is the serialisation of a well-formed signature *)
  Lemma alg6a_Some_inv lt ot I S msg Tc :
    alg6a n H ots_tbl_of lms_tbl_of lt ot I S msg = Some Tc ->
    exists s, sig_wf s /\ S = ser_lms s.
  Proof.
    unfold alg6a.
    destruct (Nat.ltb_spec (length S) 8) as [|L8]; [discriminate|].
    destruct (N.eqb_spec (strTou32 (sub S 4 8)) ot) as [Eot|]; cbn [negb]; [|discriminate].
    unfold ots_tbl_of at 1. destruct (ots_of_type K n ot) as [prm|] eqn:EO; [|discriminate].
    rewrite Nat2N.id.
    set (np := (n * (o_p prm + 1))%nat).
    destruct (Nat.ltb_spec (length S) (12 + np)) as [|L12]; [discriminate|].
    destruct (N.eqb_spec (strTou32 (sub S (8 + np) (12 + np))) lt) as [Elt|]; cbn [negb]; [|discriminate].
    unfold lms_tbl_of. destruct (lms_of_type K lt) as [lp|] eqn:EL; [|discriminate].
    rewrite Nat2N.id.
    destruct (N.leb_spec (2 ^ N.of_nat (l_h lp)) (strTou32 (sub S 0 4))) as [|Hq]; cbn [orb]; [discriminate|].
    destruct (Nat.eqb_spec (length S) (12 + np + n * l_h lp)) as [LS|]; [|discriminate].
    intros _. unfold strTou32 in *. clear L8 L12.
    assert (Enp : np = (n + n * o_p prm)%nat) by (unfold np; lia). clearbody np.
    (* S, cut at the offsets the algorithm reads at, parses to [s]; [clear]: lia on the whole
       context is slow to check *)
    set (s := {| s_q := be_dec (sub S 0 4); s_ots := prm; s_C := sub S 8 (8 + n);
                 s_y := chunks n (o_p prm) (sub S (8 + n) (8 + np));
                 s_lms := lp; s_path := chunks n (l_h lp) (sub S (12 + np) (length S)) |}).
    destruct (parse_lms_sig_inv S s []) as [W E]; [|exists s; now rewrite app_nil_r in E].
    apply parse_lms_sig_Ok. exists (sub S 0 4), (sub S 4 8), (sub S (8 + np) (12 + np)).
    unfold sig_shape. cbn [s s_q s_ots s_C s_y s_lms s_path].
    rewrite Eot, Elt, !chunks_length, !concat_chunks, !sub_length by (rewrite ?sub_length; clear - Enp LS; lia).
    repeat split; trivial; try (apply chunks_sizes; rewrite sub_length); try (clear - Enp LS; lia).
    change S with (skipn 0 S) at 1.
    rewrite (skipn_sub S 0 4), (skipn_sub S 4 8), (skipn_sub S 8 (8 + n)), (skipn_sub S (8 + n) (8 + np)),
      (skipn_sub S (8 + np) (12 + np)), (skipn_sub S (12 + np) (length S)), skipn_all by (clear - Enp LS; lia).
    now rewrite <- !app_assoc.
  Qed.

  Lemma otsp_eqb_code a b : wf_ots K n a -> wf_ots K n b -> (o_type a =? o_type b) = otsp_eqb a b.
  Proof. intros [Ea _] [Eb _]. exact (eqb_code o_type _ _ otsp_eqb_eq a b Ea Eb). Qed.

  Lemma lmsp_eqb_code a b : wf_lms K a -> wf_lms K b -> (l_type a =? l_type b) = lmsp_eqb a b.
  Proof. intros [Ea _] [Eb _]. exact (eqb_code l_type _ _ lmsp_eqb_eq a b Ea Eb). Qed.

  Lemma p_raw_length key : pk_wf key -> length (p_raw key) = (24 + n)%nat.
  Proof.
    intros [_ [_ [LI [LK R]]]]. rewrite R. unfold lms_pk_bytes.
    rewrite !app_length, !be_length. lia.
  Qed.

  Lemma pk_bytes_slices prm lp I k :
    length I = 16%nat -> length k = n ->
    let P := lms_pk_bytes prm lp I k in
    sub P 0 4 = be 4 (l_type lp) /\ sub P 4 8 = be 4 (o_type prm) /\ sub P 8 24 = I /\ sub P 24 (24 + n) = k.
  Proof.
    intros LI Lk. unfold lms_pk_bytes. repeat split; try now read_piece.
    rewrite !sub_app_r by (rewrite ?be_length; lia). apply sub_all; rewrite !be_length; lia.
  Qed.

  Lemma alg6_of key s msg :
    pk_wf key -> sig_wf s ->
    alg6 n H ots_tbl_of lms_tbl_of (p_raw key) (ser_lms s) msg = lms_verify K n H s key msg.
  Proof.
    intros WK W. pose proof (p_raw_length key WK) as L. destruct WK as (Wo & Wl & LI & LK & R).
    destruct (pk_bytes_slices (p_ots key) (p_lms key) _ _ LI LK) as (E1 & E2 & E3 & E4). rewrite <- R in *.
    unfold alg6. rewrite L, E1, E2, E3, E4. unfold strTou32.
    rewrite (be4_dec _ (proj1 (proj2 Wl))), (be4_dec _ (proj2 Wo)), (lms_tbl_wf _ Wl), (ots_tbl_wf _ Wo).
    destruct (Nat.ltb_spec (24 + n) 8); [lia|]. rewrite Nat.eqb_refl, (alg6a_ser s _ _ (p_I key) msg W LI).
    unfold lms_verify. destruct W as (Wo' & Wl' & Hq & _).
    rewrite (otsp_eqb_code _ _ Wo' Wo), (lmsp_eqb_code _ _ Wl' Wl), (proj2 (N.ltb_lt _ _) Hq).
    now destruct (otsp_eqb _ _ && lmsp_eqb _ _).
  Qed.

  Lemma alg6_true_inv pkb S msg :
    alg6 n H ots_tbl_of lms_tbl_of pkb S msg = true ->
    exists key s, pk_wf key /\ pkb = p_raw key /\ sig_wf s /\ S = ser_lms s
                  /\ lms_verify K n H s key msg = true.
  Proof.
    intros A. pose proof A as A0. revert A. unfold alg6, strTou32.
    destruct (Nat.ltb_spec (length pkb) 8) as [|L8]; [discriminate|].
    unfold lms_tbl_of at 1. destruct (lms_of_type K (be_dec (sub pkb 0 4))) as [lp|] eqn:EL; [|discriminate].
    unfold ots_tbl_of at 1. destruct (ots_of_type K n (be_dec (sub pkb 4 8))) as [prm|] eqn:EO; [|discriminate].
    destruct (Nat.eqb_spec (length pkb) (24 + n)) as [LS|]; [|discriminate].
    destruct (alg6a _ _ _ _ _ _ _ S msg) as [Tc|] eqn:A6; [|discriminate].
    intros _. destruct (alg6a_Some_inv _ _ _ _ _ _ A6) as [s [W ->]].
    (* the accepted key, cut at the offsets the algorithm reads at, parses to [key] *)
    set (key := {| p_lms := lp; p_ots := prm; p_I := sub pkb 8 24; p_key := sub pkb 24 (length pkb); p_raw := pkb |}).
    destruct (parse_lms_pk_inv pkb key []) as [WK _].
    { apply parse_lms_pk_Ok. exists (sub pkb 0 4), (sub pkb 4 8). cbn [key p_lms p_ots p_I p_key p_raw].
      rewrite ilen16, !sub_length, app_nil_r by (clear - LS; lia). repeat split; trivial; try (clear - LS; lia).
      change pkb with (skipn 0 pkb) at 1.
      now rewrite (skipn_sub pkb 0 4), (skipn_sub pkb 4 8), (skipn_sub pkb 8 24),
        (skipn_sub pkb 24 (length pkb)), skipn_all, app_nil_r by (clear - LS; lia). }
    exists key, s. rewrite <- (alg6_of key s msg WK W). exact (conj WK (conj eq_refl (conj W (conj eq_refl A0)))).
  Qed.

  Lemma split3 (S : bytes) a b :
    (a <= b)%nat -> (b <= length S)%nat -> S = sub S 0 a ++ sub S a b ++ skipn b S.
  Proof using K H_len.
    intros Hab Hb. change S with (skipn 0 S) at 1. now rewrite (skipn_sub S 0 a), (skipn_sub S a b) by lia.
  Qed.

  Lemma next_len_ser s rest :
    sig_wf s -> next_lms_sig_len n ots_tbl_of lms_tbl_of (ser_lms s ++ rest) = Some (length (ser_lms s)).
  Proof.
    intros W. pose proof (ser_lms_length s W) as L. pose proof (ser_ots_length s W) as Lo.
    destruct W as (Wo & Wl & _).
    set (np := (n * (o_p (s_ots s) + 1))%nat) in *.
    unfold next_lms_sig_len, strTou32. rewrite app_length, L.
    rewrite (sub_app_l _ _ 4 8), ser_lms_ots_type, (be4_dec _ (proj2 Wo)), (ots_tbl_wf _ Wo), Nat2N.id by lia.
    fold np. rewrite (sub_app_l _ _ (8 + np)), (ser_lms_type s np Lo), (be4_dec _ (proj1 (proj2 Wl))),
      (lms_tbl_wf _ Wl), Nat2N.id by lia.
    destruct (Nat.ltb_spec (12 + np + n * l_h (s_lms s) + length rest) (12 + np)); [lia|reflexivity].
  Qed.

  Lemma walk_sound k : forall S keyb msg,
    hss_walk n H ots_tbl_of lms_tbl_of k S keyb msg = true ->
    exists key, pk_wf key /\ keyb = p_raw key /\
      exists spks s key', parse_spks K n k S = Ok (spks, ser_lms s) /\ sig_wf s
                          /\ verify_chain K n H key spks = Some key'
                          /\ lms_verify K n H s key' msg = true.
  Proof.
    induction k as [|k IH]; intros S keyb msg; cbn [hss_walk].
    - intros A. destruct (alg6_true_inv _ _ _ A) as (key & s & WK & -> & W & -> & V).
      exists key. split; [assumption|]. split; [reflexivity|].
      exists [], s, key. auto.
    - destruct (next_lms_sig_len _ _ _ S) as [sl|]; [|discriminate].
      destruct (Nat.ltb_spec (length S) (sl + 24 + n)) as [|LS]; [discriminate|].
      destruct (alg6 _ _ _ _ keyb (sub S 0 sl) (sub S sl (sl + 24 + n))) eqn:A; [|discriminate].
      intros Wk.
      destruct (alg6_true_inv _ _ _ A) as (key & s & WK & -> & W & ES & V).
      destruct (IH _ _ _ Wk) as (key1 & WK1 & EP & spks & s' & key' & PS & W' & VC & V').
      exists key. split; [assumption|]. split; [reflexivity|].
      exists ((s, key1) :: spks), s', key'.
      split; [|split; [assumption|split; [|assumption]]].
      + rewrite (split3 S sl (sl + 24 + n)) by lia. rewrite ES, EP.
        cbn [parse_spks]. rewrite (parse_lms_sig_ser s _ W). cbn [bind].
        rewrite (parse_lms_pk_ser key1 _ WK1). cbn [bind]. rewrite PS. reflexivity.
      + cbn [verify_chain]. rewrite <- EP, V. exact VC.
  Qed.

  Lemma walk_complete k : forall S key msg spks s key',
    pk_wf key -> parse_spks K n k S = Ok (spks, ser_lms s) -> sig_wf s ->
    verify_chain K n H key spks = Some key' -> lms_verify K n H s key' msg = true ->
    hss_walk n H ots_tbl_of lms_tbl_of k S (p_raw key) msg = true.
  Proof.
    induction k as [|k IH]; intros S key msg spks s key' WK PS W VC V.
    - injection PS as <- ->.
      injection VC as <-.
      cbn [hss_walk]. now rewrite alg6_of.
    - cbn [parse_spks] in PS.
      apply bind_Ok in PS as ([s1 r1] & P1 & PS). apply bind_Ok in PS as ([p r2] & P2 & PS).
      apply bind_Ok in PS as ([rest r3] & P3 & PS). injection PS as <- ->.
      destruct (parse_lms_sig_inv _ _ _ P1) as [W1 ->].
      destruct (parse_lms_pk_inv _ _ _ P2) as [WP ->].
      cbn [verify_chain] in VC.
      destruct (lms_verify K n H s1 key (p_raw p)) eqn:V1; [|discriminate].
      pose proof (p_raw_length p WP) as LP.
      cbn [hss_walk]. rewrite (next_len_ser s1 _ W1).
      rewrite !app_length, LP.
      destruct (Nat.ltb_spec (length (ser_lms s1) + (24 + n + length r2)) (length (ser_lms s1) + 24 + n)); [lia|].
      rewrite sub_piece, sub_app_r, sub_piece by (clear - LP; lia).
      rewrite (alg6_of key s1 (p_raw p) WK W1), V1.
      rewrite app_assoc, skipn_app_exact by (rewrite app_length; lia).
      eapply IH; eassumption.
  Qed.

  Definition rfc_verify_K (msg sig pk : bytes) : bool :=
    hss_verify_rfc n H ots_tbl_of lms_tbl_of (N.of_nat (c_max_levels K)) msg sig pk.

  Lemma model_accepts_rfc_accepts msg sig pk :
    hss_verify K n H msg sig pk = Ok tt -> rfc_verify_K msg sig pk = true.
  Proof.
    intros E. apply hss_verify_Ok in E as (s & L & key & key' & PS & PP & EL & VC & V).
    apply parse_hss_sig_Ok in PS as (nb & r1 & r2 & -> & L1 & Enb & HM & PS & P0).
    apply parse_hss_pk_Ok in PP as (lb & p1 & -> & L2 & -> & PK).
    destruct (parse_lms_sig_inv _ _ _ P0) as [W0 ->]. rewrite app_nil_r in PS.
    destruct (parse_lms_pk_inv _ _ _ PK) as [WK ->]. rewrite app_nil_r.
    unfold rfc_verify_K, hss_verify_rfc. rewrite !app_length, L1, L2.
    rewrite !sub_piece by auto. unfold strTou32.
    rewrite <- Enb, EL, N.eqb_refl.
    destruct (N.leb_spec (N.of_nat (c_max_levels K)) (h_nspk s)); [lia|].
    rewrite !skipn_app_exact by assumption.
    eapply walk_complete; eassumption.
  Qed.

  Lemma rfc_accepts_model_accepts msg sig pk :
    rfc_verify_K msg sig pk = true -> hss_verify K n H msg sig pk = Ok tt.
  Proof.
    unfold rfc_verify_K, hss_verify_rfc.
    destruct (Nat.ltb_spec (length sig) 4) as [|LS]; cbn [orb]; [discriminate|].
    destruct (Nat.ltb_spec (length pk) 4) as [|LP]; [discriminate|].
    destruct (N.eqb_spec (strTou32 (sub sig 0 4) + 1) (strTou32 (sub pk 0 4))) as [EL|]; cbn [negb]; [|discriminate].
    destruct (N.leb_spec (N.of_nat (c_max_levels K)) (strTou32 (sub sig 0 4))) as [|HM]; [discriminate|].
    intros Wk.
    destruct (split_len sig 4 LS) as [nb [r1 [-> L1]]]. destruct (split_len pk 4 LP) as [lb [p1 [-> L2]]].
    rewrite !sub_piece in * by auto.
    rewrite !skipn_app_exact in Wk by assumption.
    destruct (walk_sound _ _ _ _ Wk) as [key [WK [-> [spks [s [key' [PS [W [VC V]]]]]]]]].
    apply hss_verify_Ok.
    exists {| h_nspk := be_dec nb; h_spks := spks; h_sig := s |}, (be_dec lb), key, key'.
    repeat split; trivial.
    - apply parse_hss_sig_Ok. exists nb, r1, (ser_lms s).
      repeat split; trivial. rewrite <- (app_nil_r (ser_lms s)). now apply parse_lms_sig_ser.
    - apply parse_hss_pk_Ok. exists lb, (p_raw key). repeat split; trivial.
      rewrite <- (app_nil_r (p_raw key)). now apply parse_lms_pk_ser.
  Qed.

  (* C02, byte level: the verifier of the code accepts exactly what RFC 8554 accepts *)
  Theorem hss_verify_iff_rfc msg sig pk :
    hss_verify K n H msg sig pk = Ok tt <-> rfc_verify_K msg sig pk = true.
  Proof. split; [apply model_accepts_rfc_accepts|apply rfc_accepts_model_accepts]. Qed.
End Equiv.

(* the RFC algorithms are monotone in the parameter tables: a table with more rows accepts more *)
Section TableMono.
  Variable n : nat.
  Variable H : bytes -> bytes.
  Variables o1 o2 : N -> option (N * N * N).
  Variables l1 l2 : N -> option N.
  Hypothesis MO : forall c r, o1 c = Some r -> o2 c = Some r.
  Hypothesis ML : forall c h, l1 c = Some h -> l2 c = Some h.

  Lemma alg4b_mono pt I q s m Kc :
    alg4b n H o1 pt I q s m = Some Kc -> alg4b n H o2 pt I q s m = Some Kc.
  Proof.
    unfold alg4b. destruct (Nat.ltb _ 4); [discriminate|]. destruct (negb _); [discriminate|].
    destruct (o1 _) as [r|] eqn:E; [|discriminate]. now rewrite (MO _ _ E).
  Qed.

  Lemma alg6a_mono lt ot I s m Tc :
    alg6a n H o1 l1 lt ot I s m = Some Tc -> alg6a n H o2 l2 lt ot I s m = Some Tc.
  Proof.
    unfold alg6a. destruct (Nat.ltb _ 8); [discriminate|]. destruct (negb _); [discriminate|].
    destruct (o1 ot) as [[[w p] ls]|] eqn:EO; [|discriminate]. rewrite (MO _ _ EO).
    destruct (Nat.ltb _ _); [discriminate|]. destruct (negb _); [discriminate|].
    destruct (l1 lt) as [h|] eqn:EL; [|discriminate]. rewrite (ML _ _ EL).
    destruct (_ || _); [discriminate|].
    destruct (alg4b n H o1 _ _ _ _ _) as [Kc|] eqn:E4; [|discriminate]. now rewrite (alg4b_mono _ _ _ _ _ _ E4).
  Qed.

  Lemma alg6_mono pk s m : alg6 n H o1 l1 pk s m = true -> alg6 n H o2 l2 pk s m = true.
  Proof.
    unfold alg6. destruct (Nat.ltb _ 8); [discriminate|].
    destruct (l1 _) as [h|] eqn:EL; [|discriminate]. rewrite (ML _ _ EL).
    destruct (o1 _) as [r|] eqn:EO; [|discriminate]. rewrite (MO _ _ EO).
    destruct (negb _); [discriminate|].
    destruct (alg6a n H o1 l1 _ _ _ _ _) as [Tc|] eqn:E6; [|discriminate]. now rewrite (alg6a_mono _ _ _ _ _ _ E6).
  Qed.

  Lemma next_len_mono S sl :
    next_lms_sig_len n o1 l1 S = Some sl -> next_lms_sig_len n o2 l2 S = Some sl.
  Proof.
    unfold next_lms_sig_len. destruct (Nat.ltb _ 8); [discriminate|].
    destruct (o1 _) as [[[w p] ls]|] eqn:EO; [|discriminate]. rewrite (MO _ _ EO).
    destruct (Nat.ltb _ _); [discriminate|].
    destruct (l1 _) as [h|] eqn:EL; [|discriminate]. now rewrite (ML _ _ EL).
  Qed.

  Lemma hss_walk_mono k : forall S key m,
    hss_walk n H o1 l1 k S key m = true -> hss_walk n H o2 l2 k S key m = true.
  Proof.
    induction k as [|k IH]; intros S key m; cbn [hss_walk]; [apply alg6_mono|].
    destruct (next_lms_sig_len n o1 l1 S) as [sl|] eqn:EN; [|discriminate]. rewrite (next_len_mono _ _ EN).
    destruct (Nat.ltb _ _); [discriminate|].
    destruct (alg6 n H o1 l1 _ _ _) eqn:E6; [|discriminate]. rewrite (alg6_mono _ _ _ E6). apply IH.
  Qed.

  Lemma hss_verify_rfc_mono ml m s pk :
    hss_verify_rfc n H o1 l1 ml m s pk = true -> hss_verify_rfc n H o2 l2 ml m s pk = true.
  Proof.
    unfold hss_verify_rfc. destruct (_ || _); [discriminate|].
    destruct (negb _); [discriminate|]. destruct (_ <=? _); [discriminate|]. apply hss_walk_mono.
  Qed.
End TableMono.

(* hence they depend on the tables only through their values *)
Lemma hss_verify_rfc_ext n H o1 o2 l1 l2 :
  (forall c, o1 c = o2 c) -> (forall c, l1 c = l2 c) ->
  forall ml m s pk, hss_verify_rfc n H o1 l1 ml m s pk = hss_verify_rfc n H o2 l2 ml m s pk.
Proof.
  intros EO EL ml m s pk. apply Bool.eq_true_iff_eq.
  split; apply hss_verify_rfc_mono; congruence.
Qed.
