(* The digit vector of a parameter row that follows Appendix B ([dom_ok]): message digits, then
   checksum digits that encode the whole checksum; hence it is the RFC's digit vector, and no
   digest's digit vector dominates that of another digest (C12). *)
From HbsLms Require Import Base.Bytes Model.Consts Model.Winternitz Model.Counter Spec.Rfc8554Ots.
From HbsLms Require Import Proofs.CounterProofs Proofs.WinternitzProofs.

Local Open Scope N_scope.

Section Digits.
  Variable n : nat.
  Variable prm : otsp.
  Local Notation w := (o_w prm).
  Local Notation p := (o_p prm).
  Local Notation u := (n * dn (o_w prm))%nat.
  Local Notation v := (o_p prm - n * dn (o_w prm))%nat.
  Local Notation M := (2 ^ (o_w prm) - 1).

  (* Side conditions on a parameter row, decidable by computation.  With u = 8n/w message digits
     and v = p - u checksum digits, in this order:
       w is 1, 2, 4 or 8;  the p digits include the u message digits;
       (w, v) occurs in one of the twelve LM-OTS parameter sets ([wv_pairs]: it narrows the rows,
         no proof below uses it);
       ls = 16 - v * w, the shift of Appendix B;
       the largest checksum, (2^w - 1) * u, fits v digits of w bits;
       every digit index of the n + 2 bytes Q || Cksm(Q) fits the u16 arithmetic of [coef]. *)
  Definition dom_ok : bool :=
    wok_b w
    && Nat.leb u p
    && existsb (fun wv => (fst wv =? w) && (snd wv =? N.of_nat v)) wv_pairs
    && (o_ls prm + N.of_nat v * w =? 16)
    && (M * N.of_nat u <? 2 ^ (N.of_nat v * w))
    && (N.of_nat (n + 2) * (8 / w) <? 65536).

  Hypothesis OK : dom_ok = true.

  (* [dom_ok] taken apart once, without its [wv_pairs] conjunct; the five lemmas below are the projections *)
  Lemma dom_ok_split :
    wok w /\ (u <= p)%nat /\ o_ls prm + N.of_nat v * w = 16
    /\ M * N.of_nat u < 2 ^ (N.of_nat v * w) /\ N.of_nat (n + 2) * (8 / w) < 65536.
  Proof.
    apply andb_prop in OK as [OK1 L]. apply andb_prop in OK1 as [OK1 F]. apply andb_prop in OK1 as [OK1 S].
    apply andb_prop in OK1 as [OK1 _]. apply andb_prop in OK1 as [W U].
    apply wok_b_spec in W. apply Nat.leb_le in U. apply N.eqb_eq in S. apply N.ltb_lt in F, L. auto.
  Qed.

  Lemma ok_w : wok w.
  Proof. apply dom_ok_split. Qed.
  Lemma ok_up : (u <= p)%nat.
  Proof. apply dom_ok_split. Qed.
  Lemma ok_ls : o_ls prm + N.of_nat v * w = 16.
  Proof. apply dom_ok_split. Qed.
  Lemma ok_fit : M * N.of_nat u < 2 ^ (N.of_nat v * w).
  Proof. apply dom_ok_split. Qed.
  Lemma ok_len : N.of_nat (n + 2) * (8 / w) < 65536.
  Proof. apply dom_ok_split. Qed.

  Lemma v_le : (v <= 2 * dn w)%nat.
  Proof.
    pose proof ok_ls as Hls. pose proof (wok_div w ok_w) as Hd. rewrite <- dn_N in Hd.
    (* v * w <= 16 = (2 * dn w) * w *)
    assert (H : N.of_nat v * w <= N.of_nat (2 * dn w) * w) by lia.
    apply N.mul_le_mono_pos_r in H; [lia|]. lia.
  Qed.

  Lemma digits_split Q :
    length Q = n ->
    digits n prm Q = str_digits w Q ++ firstn v (str_digits w (be 2 (checksum n prm Q))).
  Proof.
    intros Hl. pose proof ok_w as Hw. pose proof ok_up as Hup. pose proof v_le as Hv.
    unfold digits. rewrite append_checksum_be.
    set (S' := Q ++ be 2 (checksum n prm Q)).
    assert (HlS : length S' = (n + 2)%nat) by (unfold S'; now rewrite app_length, Hl).
    rewrite (map_nrange_firstn _ p (length S' * dn w)) by lia.
    rewrite map_coef_str by (try assumption; rewrite HlS; apply ok_len).
    unfold S'. rewrite str_digits_app, firstn_app, str_digits_length, Hl.
    rewrite firstn_all2 by (rewrite str_digits_length, Hl; exact Hup). reflexivity.
  Qed.

  Lemma map_coef_msg Q :
    length Q = n -> map (fun i => coef Q i w) (nrange u) = str_digits w Q.
  Proof.
    intros Hl. rewrite <- Hl. apply map_coef_str; [apply ok_w|].
    rewrite Hl. pose proof ok_len. nia.
  Qed.

  Lemma cksm_sum_spec Q :
    length Q = n ->
    cksm_sum n w Q = sumN (map (fun d => M - d) (str_digits w Q)).
  Proof.
    intros Hl. unfold cksm_sum. rewrite dn_mul by apply ok_w.
    rewrite fold_add_sum, <- map_coef_msg, map_map by assumption.
    now rewrite coef_mask_spec.
  Qed.

  Lemma cksm_sum_digits Q :
    length Q = n ->
    cksm_sum n w Q + sumN (str_digits w Q) = M * N.of_nat u.
  Proof.
    intros Hl. rewrite <- map_coef_msg, <- coef_mask_spec by assumption. apply cksm_sum_defect, ok_w.
  Qed.

  (* the 16-bit checksum value: nothing is shifted out *)
  Lemma checksum_exact Q :
    length Q = n -> checksum n prm Q = cksm_sum n w Q * 2 ^ o_ls prm.
  Proof.
    intros Hl. pose proof (cksm_sum_digits Q Hl) as Hs. pose proof ok_fit as Hf. pose proof ok_ls as Hls.
    apply N.mod_small.
    change 65536 with (2 ^ 16). rewrite <- Hls, N.pow_add_r.
    nia.
  Qed.

  Lemma checksum_digits_encode_sum Q :
    length Q = n ->
    val (2 ^ w) (firstn v (str_digits w (be 2 (checksum n prm Q)))) = cksm_sum n w Q.
  Proof.
    intros Hl. pose proof ok_ls as Hls. pose proof (wok_div w ok_w) as Hd.
    rewrite val_firstn_str, be_dec_be, be_length by apply ok_w.
    rewrite N.mod_small by apply checksum_lt.
    (* the digits left out are the low 16 - v * w = ls bits *)
    replace (w * N.of_nat (2 * dn w - v)) with (o_ls prm) by (rewrite <- dn_N in Hd; nia).
    rewrite checksum_exact by assumption. apply N.div_mul, N.pow_nonzero. lia.
  Qed.

  (* Let the digits of Q1 be pointwise <= those of Q2.  The message digits give sum Q1 <= sum Q2;
     the checksum digits, read as one number, give cksm Q1 <= cksm Q2; cksm + sum is the same
     constant M * u for both, so the sums are equal; pointwise <= with equal sums is equality, and
     the message digits determine the digest. *)
  Theorem no_domination Q1 Q2 :
    length Q1 = n -> length Q2 = n ->
    Forall2 N.le (digits n prm Q1) (digits n prm Q2) -> Q1 = Q2.
  Proof.
    intros H1 H2 F. pose proof ok_w as Hw.
    rewrite !digits_split in F by assumption.
    apply Forall2_app_split in F; [|now rewrite !str_digits_length, H1, H2].
    destruct F as [Fm Fc].
    pose proof (Forall2_le_sum _ _ Fm) as Hsum.
    apply (val_mono (2 ^ w)) in Fc.
    rewrite !checksum_digits_encode_sum in Fc by assumption.
    pose proof (cksm_sum_digits Q1 H1) as E1. pose proof (cksm_sum_digits Q2 H2) as E2.
    assert (Es : sumN (str_digits w Q1) = sumN (str_digits w Q2)) by lia.
    apply (str_digits_inj w); [assumption|congruence|].
    now apply Forall2_le_sum_eq.
  Qed.

  Theorem digits_rfc Q :
    digits n prm Q = rfc_digits (N.of_nat n) w (o_ls prm) (N.of_nat p) Q.
  Proof.
    pose proof ok_len as Hlen. pose proof v_le as Hv.
    apply digits_rfc_gen; [apply ok_w | nia | rewrite <- dn_N in Hlen; lia].
  Qed.
End Digits.

(* boolean pointwise comparison, to exhibit concrete domination pairs by computation *)
Fixpoint le_all_b (a b : list N) : bool :=
  match a, b with
  | [], [] => true
  | x :: a', y :: b' => (x <=? y) && le_all_b a' b'
  | _, _ => false
  end.

Lemma le_all_b_spec a b : le_all_b a b = true -> Forall2 N.le a b.
Proof.
  revert b; induction a as [|x a IH]; intros [|y b]; cbn; try discriminate; [constructor|].
  rewrite andb_true_iff, N.leb_le. intros [H1 H2]. constructor; [assumption|now apply IH].
Qed.

(* a digest pair witnessing domination for a parameter row whose shift drops checksum bits *)
Definition dom_witness (n : nat) : bytes * bytes :=
  (repeat xff n, repeat xff (n - 1) ++ [xfe]).

Definition dominated_b (n : nat) (prm : otsp) : bool :=
  let (Q1, Q2) := dom_witness n in
  negb (bytes_eqb Q1 Q2) && Nat.eqb (length Q1) n && Nat.eqb (length Q2) n
  && le_all_b (digits n prm Q2) (digits n prm Q1).

Lemma dominated_b_spec n prm :
  dominated_b n prm = true ->
  exists Q1 Q2, Q1 <> Q2 /\ length Q1 = n /\ length Q2 = n /\
                Forall2 N.le (digits n prm Q2) (digits n prm Q1).
Proof.
  unfold dominated_b. destruct (dom_witness n) as [Q1 Q2].
  rewrite !andb_true_iff, negb_true_iff, !Nat.eqb_eq. intros [[[Hne H1] H2] Hle].
  exists Q1, Q2. repeat split; try assumption.
  - intros E. apply bytes_eqb_eq in E. congruence.
  - now apply le_all_b_spec.
Qed.
