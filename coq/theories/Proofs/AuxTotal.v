(* Any auxiliary buffer (the aux clause of C11, and the side premises of C10): whatever the buffer
   contains, [get_expanded] returns a view or none ([get_expanded_total]), so key generation and
   signing with a buffer do not panic; decoded parameter bytes are well-formed parameter pairs
   ([params_of_bytes_wf]); with both, signing with a buffer whose view is absent or good is
   signing without ([sign_core_aux_same_strong]). *)
From HbsLms Require Import Base.Bytes Model.Consts Model.Derive Model.KeyBlob Model.Hss
     Model.Aux Model.SignCore.
From HbsLms Require Import Proofs.CounterProofs Proofs.HssComplete Proofs.KeyBlobProofs
     Proofs.SignProofs Proofs.SignCoreProofs Proofs.TotalProofs Proofs.AuxProofs Proofs.AuxSignProofs.

Local Open Scope N_scope.

Section DecodeTbl.
  Variable K : consts.
  Variable n : nat.
  Hypothesis OK : model_ok K n = true.

  Lemma params_of_bytes_wf bs ps : params_of_bytes K n bs = Ok ps -> Forall (wf_param K n) ps.
  Proof. intros E. apply params_of_bytes_in_tbl in E. revert E. apply Forall_impl, (ok_wf K n OK). Qed.
End DecodeTbl.

(* Why the view of a fresh buffer exists: hss_optimal_aux_level reserves room for the levels it
   chooses ([pick_levels_sum]); below the in-use bit 31 the level word it writes has exactly the bits
   of the chosen levels ([level_word_bit]); so the layers the word announces, each level counted
   once, take no more room than the chosen levels ([layers_le_chosen]) and the split of the buffer
   into layers does not run past its end ([split_layers_ok]). *)

Lemma split_layers_ok sizes : forall data,
  fold_right N.add 0 (map snd sizes) <= N.of_nat (length data) ->
  exists ls rest, split_layers sizes data = Ok (ls, rest).
Proof.
  induction sizes as [|[i sz] r IH]; intros data Hs; cbn [split_layers].
  - eauto.
  - cbn [map snd fold_right] in Hs.
    destruct (N.ltb_spec (N.of_nat (length data)) sz); [lia|].
    destruct (read_ok (N.to_nat sz) data) as (layer & rest & -> & L); [lia|].
    destruct (IH rest) as [ls [rest' E']]; [lia|]. rewrite E'. cbn [bind]. eauto.
Qed.

(* the room the levels [ls] take, n * 2^l bytes each *)
Definition lsum (n : nat) (ls : list nat) : N := fold_right N.add 0 (map (fun l => N.of_nat n * 2 ^ N.of_nat l) ls).

Lemma pick_levels_sum n ls : forall avail chosen rem,
  pick_levels n ls avail = (chosen, rem) -> lsum n chosen + rem = avail.
Proof.
  induction ls as [|l r IH]; intros avail chosen rem; cbn [pick_levels].
  - intros [= <- <-]. reflexivity.
  - destruct (N.leb_spec (N.of_nat n * 2 ^ N.of_nat l) avail) as [Hle|Hgt]; [|apply IH].
    destruct (pick_levels n r (avail - N.of_nat n * 2 ^ N.of_nat l)) as [c rm] eqn:E.
    intros [= <- <-]. specialize (IH _ _ _ E). unfold lsum in *. cbn [map fold_right]. lia.
Qed.

Lemma level_bits ls : forall acc i,
  N.testbit (fold_left (fun a l => N.lor a (N.shiftl 1 (N.of_nat l))) ls acc) (N.of_nat i)
  = N.testbit acc (N.of_nat i) || existsb (Nat.eqb i) ls.
Proof.
  induction ls as [|l r IH]; intros acc i; cbn [fold_left existsb]; [now rewrite orb_false_r|].
  rewrite IH, N.lor_spec, N.shiftl_1_l, N.pow2_bits_eqb.
  replace (N.of_nat l =? N.of_nat i) with (Nat.eqb i l).
  - now rewrite orb_assoc.
  - destruct (Nat.eqb_spec i l) as [->|Hne]; [now rewrite N.eqb_refl|].
    symmetry. apply N.eqb_neq. lia.
Qed.

(* below the in-use bit 31, the bits of a level word are its levels.  [mod 2^32]: the word is
   stored with [be 4], so these low 32 bits are what [expand_aux] reads back *)
Lemma level_word_bit chosen i :
  (i < 31)%nat -> N.testbit (level_word chosen mod 4294967296) (N.of_nat i) = existsb (Nat.eqb i) chosen.
Proof.
  intros Hi. change 4294967296 with (2 ^ 32). rewrite N.mod_pow2_bits_low by lia.
  unfold level_word. destruct chosen as [|c cs]; [reflexivity|].
  rewrite level_bits. change 0x80000000 with (2 ^ 31). rewrite N.pow2_bits_eqb.
  destruct (N.eqb_spec 31 (N.of_nat i)); [lia|reflexivity].
Qed.

Section Weights.
  Variable w : nat -> N.

  (* weighing the members of [ls] below [S k] instead of below [k] adds every occurrence of [k] *)
  Lemma below_succ k (ls : list nat) :
    fold_right N.add 0 (map (fun l => if Nat.ltb l k then w l else 0) ls)
    + (if existsb (Nat.eqb k) ls then w k else 0)
    <= fold_right N.add 0 (map (fun l => if Nat.ltb l (S k) then w l else 0) ls).
  Proof.
    induction ls as [|c cs IH]; cbn [map fold_right existsb]; [lia|].
    destruct (Nat.ltb_spec c k), (Nat.ltb_spec c (S k)), (Nat.eqb_spec k c) as [->|]; cbn [orb]; lia.
  Qed.

  (* if, below [k], [b] marks exactly the members of [ls], the marked levels (each weighed once)
     weigh no more than the members of [ls] below [k]; by induction on [k] *)
  Lemma marked_le_members (b : nat -> bool) (ls : list nat) k :
    (forall i, (i < k)%nat -> b i = existsb (Nat.eqb i) ls) ->
    fold_right N.add 0 (map snd (flat_map (fun i => if b i then [(i, w i)] else []) (seq 0 k)))
    <= fold_right N.add 0 (map (fun l => if Nat.ltb l k then w l else 0) ls).
  Proof.
    induction k as [|k IH]; intros Hb; [apply N.le_0_l|].
    rewrite seq_S, flat_map_app, map_app. cbn [Nat.add flat_map]. rewrite Hb by lia.
    eapply N.le_trans; [|apply below_succ].
    rewrite sumN_app. apply N.add_le_mono; [auto|].
    destruct (existsb (Nat.eqb k) ls); cbn; lia.
  Qed.

  Lemma members_below_le k (ls : list nat) :
    fold_right N.add 0 (map (fun l => if Nat.ltb l k then w l else 0) ls) <= fold_right N.add 0 (map w ls).
  Proof. induction ls as [|c cs IH]; cbn [map fold_right]; [lia|]. destruct (Nat.ltb c k); lia. Qed.
End Weights.

(* the layers announced by (the low 32 bits of) a level word are among the chosen levels *)
Lemma layers_le_chosen n chosen k :
  (k <= 31)%nat ->
  fold_right N.add 0
    (map snd (flat_map (fun i => if N.testbit (level_word chosen mod 4294967296) (N.of_nat i)
                                 then [(i, N.of_nat n * 2 ^ N.of_nat i)] else []) (seq 0 k)))
  <= fold_right N.add 0 (map (fun l => if Nat.ltb l k then N.of_nat n * 2 ^ N.of_nat l else 0) chosen).
Proof.
  intros Hk. apply (marked_le_members (fun l => N.of_nat n * 2 ^ N.of_nat l)).
  intros i Hi. apply level_word_bit. lia.
Qed.

(* side conditions on the aux constants, decidable by computation: the reserved AUX_DATA_HASHES
   bytes hold at least the 4-byte level word; the in-use bit 31 of the level word lies above every
   tree level; the "no aux data" marker is the first byte of the buffer, and fits a byte *)
Definition aux_consts_ok (K : consts) : bool :=
  Nat.leb 4 (c_aux_data_hashes K) && Nat.ltb (max_tree_height K) 31
  && Nat.eqb (c_aux_data_marker K) 0 && (c_no_aux_data K <? 256).

Section GetExpandedTotal.
  Variable K : consts.
  Variable n : nat.
  Variable H : bytes -> bytes.
  Hypothesis AOK : aux_consts_ok K = true.

  Lemma aux_consts_ok_split : (4 <= c_aux_data_hashes K)%nat /\ (max_tree_height K < 31)%nat
              /\ c_aux_data_marker K = 0%nat /\ c_no_aux_data K < 256.
  Proof.
    pose proof AOK as R.
    apply andb_prop in R as [[[A%Nat.leb_le B%Nat.ltb_lt]%andb_prop C%Nat.eqb_eq]%andb_prop D%N.ltb_lt].
    exact (conj A (conj B (conj C D))).
  Qed.

  Lemma announced_le_chosen chosen :
    fold_right N.add 0 (map snd (layer_sizes K n (level_word chosen mod 4294967296))) <= lsum n chosen.
  Proof.
    destruct aux_consts_ok_split as [_ [A31 _]].
    eapply N.le_trans; [apply layers_le_chosen; lia|apply members_below_le].
  Qed.

  (* the view exists when the announced layers fit; for an in-use buffer (validated against a seed)
     the MAC check implies that they do *)
  Lemma expand_aux_total aux seed :
    (seed = None -> forall lb body, read 4 aux = Some (lb, body) ->
       fold_right N.add 0 (map snd (layer_sizes K n (be_dec lb))) <= N.of_nat (length body)) ->
    exists oe, expand_aux K n H aux seed = Ok oe.
  Proof.
    intros Fit. unfold expand_aux. destruct aux as [|b0 r]; [eauto|].
    destruct (b2n b0 =? c_no_aux_data K); [eauto|].
    destruct (read 4 (b0 :: r)) as [[lb body]|] eqn:ER; [|eauto].
    destruct (negb _) eqn:MAC; [eauto|].
    destruct (split_layers_ok (layer_sizes K n (be_dec lb)) body) as [ls [rest ->]]; [|cbn [bind]; eauto].
    destruct seed as [sd|]; [|exact (Fit eq_refl lb body eq_refl)].
    revert MAC. destruct (_ <? _) eqn:Hfit; [discriminate|intros _]. apply N.ltb_ge in Hfit.
    apply read_Some in ER. destruct ER as [E L]. rewrite E, app_length in Hfit. lia.
  Qed.

  Lemma expand_unmarked buf seed : expand_aux K n H (store_marker K buf 0) seed = Ok None.
  Proof.
    destruct aux_consts_ok_split as [_ [_ [AM AN]]]. unfold store_marker. rewrite N.eqb_refl, AM.
    unfold Lmots.blit. cbn [firstn app]. unfold expand_aux. now rewrite b2n_n2b, N.mod_small, N.eqb_refl.
  Qed.

  (* a fresh buffer: the level word written by hss_store_aux_marker announces no more than was
     reserved by hss_optimal_aux_level *)
  Lemma expand_fresh_total len h0 :
    exists oe, expand_aux K n H (store_marker K (repeat x00 len) (fst (optimal_aux K n len h0))) None = Ok oe.
  Proof.
    destruct aux_consts_ok_split as [A4 _]. unfold optimal_aux.
    destruct (Nat.ltb_spec len (c_aux_data_hashes K + n)) as [|]; [eexists; apply expand_unmarked|].
    destruct (pick_levels n (levels_from K h0 (S h0)) (N.of_nat (len - (c_aux_data_hashes K + n)))) as [chosen rem] eqn:EP.
    apply pick_levels_sum in EP. cbn [fst].
    destruct (N.eqb_spec (level_word chosen) 0) as [->|Hne]; [eexists; apply expand_unmarked|].
    unfold store_marker. rewrite (proj2 (N.eqb_neq _ _) Hne).
    apply expand_aux_total. intros _ lb body ER.
    (* the marked buffer is the level word followed by zeros *)
    unfold Lmots.blit in ER. cbn [firstn app Nat.add] in ER.
    rewrite skipn_repeat, read_app in ER by apply be_length. injection ER as <- <-.
    change (be_dec _) with (be_dec (be 4 (level_word chosen))). rewrite be_dec_be, repeat_length.
    change (256 ^ N.of_nat 4) with 4294967296.
    pose proof (announced_le_chosen chosen). lia.
  Qed.

  Theorem get_expanded_total aux seed h0 :
    exists oe aux1, get_expanded K n H aux seed h0 = Ok (oe, aux1).
  Proof.
    unfold get_expanded. destruct aux as [|b0 r]; [eauto|].
    destruct (negb (b2n b0 =? c_no_aux_data K)).
    - destruct (expand_aux_total (b0 :: r) (Some seed) ltac:(discriminate)) as [oe E]. rewrite E. cbn [bind]. eauto.
    - pose proof (expand_fresh_total (aux_data_len K n (length (b0 :: r)) h0) h0) as [oe E].
      destruct (optimal_aux K n (aux_data_len K n (length (b0 :: r)) h0) h0) as [lvl l2].
      cbn [fst] in E. rewrite E. cbn [bind]. eauto.
  Qed.
End GetExpandedTotal.

Section AuxEntryTotal.
  Variable K : consts.
  Variable n : nat.
  Variable H : bytes -> bytes.
  Hypothesis AOK : aux_consts_ok K = true.

  Lemma hss_signature_aux_total ps seed c msg e : hss_signature_aux K n H ps seed c msg e <> Panic.
  Proof.
    unfold hss_signature_aux. destruct (combine ps _) as [|[p0 q0] below]; [discriminate|].
    destruct (root_seed_I _ _ _) as [s0 I0]. destruct below as [|[p1 q1] rest].
    - destruct (lms_sign_bytes_aux K n H I0 s0 p0 q0 _ msg e). discriminate.
    - destruct (child_seed_I K H s0 I0 q0) as [cseed cI].
      destruct (lms_sign_bytes_aux K n H I0 s0 p0 q0 _ _ e).
      destruct (expand K n H cseed cI p1 q1 rest) as [spks [[[bseed bI] bp] bq]]. discriminate.
  Qed.

  Lemma get_expanded_no_panic aux seed h0 : get_expanded K n H aux seed h0 <> Panic.
  Proof. now destruct (get_expanded_total K n H AOK aux seed h0) as (? & ? & ->). Qed.

  Hint Resolve get_expanded_no_panic hss_signature_aux_total : total.

  Theorem sign_core_aux_total blob msg aux cb : fst (fst (sign_core_aux K n H blob msg aux cb)) <> Panic.
  Proof.
    rewrite sign_core_aux_eq. apply ask_total.
    bind_total as [k [|p0 r]]; [discriminate|]. bind_total as [[e|] aux1]; bind_total; discriminate.
  Qed.

  Theorem keygen_aux_total ps seed aux : keygen_aux K n H ps seed aux <> Panic.
  Proof.
    unfold keygen_aux. bind_total. bind_total as [|p0 r]; [discriminate|]. bind_total as [oe aux1].
    destruct (root_seed_I K H seed) as [s0 I0].
    destruct oe as [e|]; [destruct (tree_aux _ _ _ _ _ _ _ _ _ _)|];
      (destruct (Nat.ltb _ _); [discriminate|]; destruct (Nat.ltb _ _); discriminate).
  Qed.
End AuxEntryTotal.

(* signing with a buffer = signing without, whenever the view of the buffer is absent or good:
   the well-formedness and totality premises of [sign_core_aux_same] are theorems *)
Section SignAuxStrong.
  Variable K : consts.
  Variable n : nat.
  Variable H : bytes -> bytes.
  Hypothesis H_len : forall x, length (H x) = n.
  Hypothesis OK : model_ok K n = true.
  Hypothesis AOK : aux_consts_ok K = true.

  Theorem sign_core_aux_same_strong blob msg aux cb :
    (forall k p0 r oe aux1,
        blob_parse K n blob = Ok k -> params_of_bytes K n (k_params k) = Ok (p0 :: r) ->
        get_expanded K n H aux (k_seed k) (l_h (snd p0)) = Ok (oe, aux1) ->
        good_view K n H (l_h (snd p0)) (snd (root_seed_I K H (k_seed k))) (fst (root_seed_I K H (k_seed k))) (fst p0) oe) ->
    let '(r, calls, _) := sign_core_aux K n H blob msg aux cb in
    (r, calls) = sign_core K n H blob msg cb.
  Proof.
    intros G. apply (sign_core_aux_same K n H H_len blob msg aux cb).
    - intros k p0 r oe aux1 EB EP EG. split; [exact (params_of_bytes_wf K n OK _ _ EP)|].
      exact (G k p0 r oe aux1 EB EP EG).
    - intros k p0 r _ _. apply (get_expanded_total K n H AOK).
  Qed.
End SignAuxStrong.
