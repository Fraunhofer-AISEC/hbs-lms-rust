(* C02 -- verification accepts exactly the triples RFC 8554 accepts, and nothing else.
   The theorems of Proofs/RfcVerifyEquiv.v, Proofs/VerifyProofs.v, Proofs/RfcCore.v,
   Proofs/SourceRfc.v and Spec/RfcKat.v at the constants of the current source; the rejection
   theorems are short arguments from them, made here.

   What is a theorem here (for EVERY hash function with n-byte output and EVERY byte string):
     - [C02_verifier_is_rfc8554_verifier]: the verifier of the code (cursor parsers, type checks,
       candidate computation, chain of signed public keys) returns "accepted" IF AND ONLY IF the
       independent transcription of RFC 8554 section 6.3 / Algorithms 6, 6a, 4b (Spec/Rfc8554.v:
       slicing by offsets, written from the RFC text) returns VALID, when both use the parameter
       rows (w, p, ls, h per type code) of the current source;
     - [C02_tables_are_rfc_tables]: those rows are the RFC's (Table 1 / Appendix B formulas,
       Table 2) except the three known-finding rows, so for n = 32 the right-hand side is
       literally RFC 8554 ([C02_verifier_is_rfc8554_n32]);
     - acceptance implies every check of 6.3 / 6 / 6a; wrong level count, type-code mismatch and
       appended bytes are rejected; the hash preimages are the RFC's;
     - the RFC's Appendix F vectors are accepted by the model and by the transcription.
   What is NOT a theorem: "any alteration of an accepted triple is rejected" beyond the structural
   checks -- that is second-preimage resistance of H.
   KNOWN FINDING: rows n=16/w=1, n=16/w=2, n=24/w=1 use a non-RFC checksum shift. *)
From HbsLms Require Import Base.Bytes Model.Consts Model.Lmots Model.Lms Model.Codec Model.Hss.
From HbsLms Require Import Spec.Rfc8554 Spec.RfcKat.
From HbsLms Require Import Proofs.CodecProofs Proofs.VerifyProofs Proofs.RfcCore Proofs.RfcVerifyEquiv
     Proofs.SourceRfc Gen.Generated.
From HbsLms Require Import Properties.C07.

Local Open Scope N_scope.

Theorem C02_accept_implies_rfc_checks :
  forall (n : nat) (H : bytes -> bytes) (msg sig pk : bytes),
    hss_verify K_src n H msg sig pk = Ok tt ->
    exists s L key,
      parse_hss_sig K_src n sig = Ok s /\ parse_hss_pk K_src n pk = Ok (L, key)
      /\ h_nspk s + 1 = L
      /\ length (h_spks s) = N.to_nat (h_nspk s)
      /\ exists key', verify_chain K_src n H key (h_spks s) = Some key'
                      /\ lms_verify K_src n H (h_sig s) key' msg = true.
Proof.
  intros n H msg sig pk E. apply hss_verify_Ok in E as (s & L & key & key' & PS & PP & EL & VC & V).
  exists s, L, key. repeat split; trivial; [|now exists key'].
  apply parse_hss_sig_Ok in PS as (nb & r1 & r2 & _ & _ & _ & _ & PS & _). exact (parse_spks_length _ _ _ _ _ _ PS).
Qed.

Theorem C02_lms_checks :
  forall (n : nat) (H : bytes -> bytes) (s : lms_sig) (key : lms_pk) (msg : bytes),
    lms_verify K_src n H s key msg = true ->
    s_ots s = p_ots key /\ s_lms s = p_lms key /\ s_q s < 2 ^ N.of_nat (l_h (s_lms s))
    /\ lms_candidate K_src n H (p_I key) (s_ots s) (s_lms s) (s_q s) (s_C s) (s_y s) (s_path s) msg = p_key key.
Proof. apply lms_verify_true. Qed.

Theorem C02_wrong_level_count_rejected :
  forall (n : nat) (H : bytes -> bytes) (msg sig pk : bytes) (s : hss_sig) (L : N) (key : lms_pk),
    parse_hss_sig K_src n sig = Ok s -> parse_hss_pk K_src n pk = Ok (L, key) ->
    h_nspk s + 1 <> L -> hss_verify K_src n H msg sig pk = Err.
Proof.
  intros n H msg sig pk s L key PS PP Hne. unfold hss_verify. rewrite PS, PP. cbn [bind].
  apply N.eqb_neq in Hne. now rewrite Hne.
Qed.

Theorem C02_type_code_mismatch_rejected :
  forall (n : nat) (H : bytes -> bytes) (s : lms_sig) (key : lms_pk) (msg : bytes),
    s_ots s <> p_ots key \/ s_lms s <> p_lms key -> lms_verify K_src n H s key msg = false.
Proof.
  intros n H s key msg Hne. destruct (lms_verify K_src n H s key msg) eqn:E; [|reflexivity].
  apply lms_verify_true in E. destruct E as [A [B _]]. destruct Hne; congruence.
Qed.

Theorem C02_extended_inputs_rejected :
  forall (n : nat) (H : bytes -> bytes) (msg sig pk extra : bytes),
    hss_verify K_src n H msg sig pk = Ok tt -> extra <> [] ->
    hss_verify K_src n H msg (sig ++ extra) pk = Err /\ hss_verify K_src n H msg sig (pk ++ extra) = Err.
Proof.
  intros n H msg sig pk extra E He.
  apply hss_verify_Ok in E as (s & L & key & _ & PS & PP & _).
  split; unfold hss_verify.
  - now rewrite (extended_signature_rejected K_src n sig s extra PS He).
  - rewrite PS. now rewrite (extended_public_key_rejected K_src n pk (L, key) extra PP He).
Qed.

Theorem C02_hash_preimages_are_rfc :
  forall (n : nat) (H : bytes -> bytes) (I : bytes) (q i j : N) (x a b Kq : bytes) (r : N),
    (forall y, length (H y) = n) -> length I = 16%nat -> length x = n ->
    chain_buf K_src n I q i j x = I ++ u32str q ++ u16str i ++ u8str j ++ x
    /\ leaf_hash K_src H I r Kq = H (I ++ u32str r ++ u16str D_LEAF ++ Kq)
    /\ intr_hash K_src H I r a b = H (I ++ u32str r ++ u16str D_INTR ++ a ++ b)
    /\ c_d_pblc K_src = u16str D_PBLC /\ c_d_mesg K_src = u16str D_MESG.
Proof.
  intros n H I q i j x a b Kq r HL LI Lx.
  split; [exact (chain_buf_rfc K_src n H HL source_consts_rfc I q i j x LI Lx)|].
  split; [exact (leaf_hash_rfc K_src H source_consts_rfc I r Kq)|].
  split; [exact (intr_hash_rfc K_src H source_consts_rfc I r a b)|].
  split; [exact (rfc_d_pblc (rfc_fields K_src source_consts_rfc))|].
  exact (rfc_d_mesg (rfc_fields K_src source_consts_rfc)).
Qed.

Theorem C02_rfc_vectors :
  rfc_verify rfc_testcase1_message rfc_testcase1_signature rfc_testcase1_public_key = true
  /\ rfc_verify rfc_testcase2_message rfc_testcase2_signature rfc_testcase2_public_key = true
  /\ hss_verify K_src 32 sha rfc_testcase1_message rfc_testcase1_signature rfc_testcase1_public_key = Ok tt
  /\ hss_verify K_src 32 sha rfc_testcase2_message rfc_testcase2_signature rfc_testcase2_public_key = Ok tt.
Proof. exact C07_rfc_vectors. Qed.

Theorem C02_verifier_is_rfc8554_verifier :
  forall (n : nat) (H : bytes -> bytes) (msg sig pk : bytes),
    In n hash_sizes -> (forall x, length (H x) = n) ->
    (hss_verify K_src n H msg sig pk = Ok tt
     <-> hss_verify_rfc n H (ots_tbl_of K_src n) (lms_tbl_of K_src)
                        (N.of_nat (c_max_levels K_src)) msg sig pk = true).
Proof.
  intros n H msg sig pk Hn HL.
  exact (hss_verify_iff_rfc K_src n H HL source_consts_rfc (tables_ok_n n Hn) msg sig pk).
Qed.

(* the rows handed to the transcription are RFC 8554's, except the known-finding rows *)
Theorem C02_tables_are_rfc_tables :
  (forall n code, In n hash_sizes ->
     ots_tbl_of K_src n code = rfc_ots_tbl n code
     \/ In (n, code) [(16%nat, 1); (16%nat, 2); (24%nat, 1)])
  /\ (forall code, lms_tbl_of K_src code = if code =? 1 then Some 2 else rfc_lms_tbl code).
Proof. exact source_tables_rfc. Qed.

(* hence, for the 32-byte hashes, literally RFC 8554 (the LMS table extended by the 4-leaf
   test type, code 1, that the verification build enables) *)
Theorem C02_verifier_is_rfc8554_n32 :
  forall (H : bytes -> bytes) (msg sig pk : bytes),
    (forall x, length (H x) = 32%nat) ->
    (hss_verify K_src 32 H msg sig pk = Ok tt
     <-> hss_verify_rfc 32 H (rfc_ots_tbl 32)
                        (fun code => if code =? 1 then Some 2 else rfc_lms_tbl code) 8 msg sig pk = true).
Proof.
  intros H msg sig pk HL.
  rewrite (C02_verifier_is_rfc8554_verifier 32 H msg sig pk) by (assumption || (cbn; tauto)).
  now rewrite (hss_verify_rfc_ext 32 H _ _ _ _ source_ots_tbl_32 (proj2 C02_tables_are_rfc_tables)).
Qed.

Print Assumptions C02_verifier_is_rfc8554_verifier.
Print Assumptions C02_tables_are_rfc_tables.
Print Assumptions C02_verifier_is_rfc8554_n32.
Print Assumptions C02_accept_implies_rfc_checks.
Print Assumptions C02_lms_checks.
Print Assumptions C02_wrong_level_count_rejected.
Print Assumptions C02_type_code_mismatch_rejected.
Print Assumptions C02_extended_inputs_rejected.
Print Assumptions C02_hash_preimages_are_rfc.
