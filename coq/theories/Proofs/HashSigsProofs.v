(* The model's derivations, under the constants of hash-sigs, are the reference's (Spec/HashSigs.v). *)
From HbsLms Require Import Base.Bytes Model.Consts Model.Derive.
From HbsLms Require Import Spec.HashSigs Proofs.RfcCore.

Local Open Scope N_scope.

(* the block layouts and indices of the hash-sigs derivation (Spec/HashSigs.v), as constants *)
Definition consts_hashsigs (K : consts) : bool :=
  Nat.eqb (c_ilen K) 16 && Nat.eqb (c_max_hash_size K) 32
  && Nat.eqb (c_topseed_seed K) 23 && Nat.eqb (c_topseed_len K) 55 && Nat.eqb (c_topseed_d K) 20
  && Nat.eqb (c_topseed_which K) 22 && (c_d_topseed K =? 0xfefe)
  && Nat.eqb (c_prng_i K) 0 && Nat.eqb (c_prng_q K) 16 && Nat.eqb (c_prng_j K) 20
  && Nat.eqb (c_prng_ff K) 22 && Nat.eqb (c_prng_seed K) 23 && Nat.eqb (c_prng_len_base K) 23
  && (c_seed_child_seed K =? 0xfffe) && (c_seed_randomizer_seed K =? 0xfffd).

(* [consts_hashsigs K = true], read field by field ([hs_fields]) *)
Set Implicit Arguments.
Record consts_hashsigs_fields (K : consts) : Prop := {
  hs_ilen : c_ilen K = 16%nat;
  hs_max_hash_size : c_max_hash_size K = 32%nat;
  hs_topseed_seed : c_topseed_seed K = 23%nat;
  hs_topseed_len : c_topseed_len K = 55%nat;
  hs_topseed_d : c_topseed_d K = 20%nat;
  hs_topseed_which : c_topseed_which K = 22%nat;
  hs_d_topseed : c_d_topseed K = 0xfefe;
  hs_prng_i : c_prng_i K = 0%nat;
  hs_prng_q : c_prng_q K = 16%nat;
  hs_prng_j : c_prng_j K = 20%nat;
  hs_prng_ff : c_prng_ff K = 22%nat;
  hs_prng_seed : c_prng_seed K = 23%nat;
  hs_prng_len_base : c_prng_len_base K = 23%nat;
  hs_seed_child_seed : c_seed_child_seed K = 0xfffe;
  hs_seed_randomizer_seed : c_seed_randomizer_seed K = 0xfffd }.
Unset Implicit Arguments.

Section HashSigsProofs.
  Variable K : consts.
  Variable H : bytes -> bytes.
  Hypothesis HS : consts_hashsigs K = true.

  Lemma hs_fields : consts_hashsigs_fields K.
  Proof.
    pose proof HS as R. repeat (apply andb_prop in R; destruct R as [R ?]).
    split; (apply Nat.eqb_eq + apply N.eqb_eq); assumption.
  Qed.

  Lemma topseed_pre_hs which fill :
    (length fill <= 32)%nat -> topseed_pre K which fill = hs_topseed which fill.
  Proof.
    clear H. (* the block is built without the hash *) intros Lf. pose proof hs_fields as F. unfold topseed_pre.
    rewrite (hs_topseed_len F), (hs_topseed_d F), (hs_d_topseed F), (hs_topseed_seed F), (hs_topseed_which F).
    replace 55%nat with (20 + (1 + (1 + (1 + (length fill + (32 - length fill))))))%nat by lia.
    rewrite !repeat_app. autorewrite with blit. reflexivity.
  Qed.

  Hypothesis H_len32 : forall x, (length (H x) <= 32)%nat.

  Theorem root_seed_I_hs seed :
    (length seed <= 32)%nat -> root_seed_I K H seed = hs_root H seed.
  Proof.
    intros Ls. unfold root_seed_I.
    rewrite (hs_ilen hs_fields), !topseed_pre_hs by (try assumption; apply H_len32). reflexivity.
  Qed.

  Lemma seed_derive_hs seed I q j :
    length I = 16%nat -> (length seed <= 32)%nat ->
    seed_derive K H seed I q j = hs_derive H seed I q j.
  Proof.
    intros LI Ls. pose proof hs_fields as F. unfold seed_derive.
    rewrite (hs_prng_len_base F), (hs_max_hash_size F), (hs_prng_i F), (hs_prng_q F), (hs_prng_j F),
      (hs_prng_ff F), (hs_prng_seed F).
    replace (23 + 32)%nat with (16 + (4 + (2 + (1 + (length seed + (32 - length seed))))))%nat by lia.
    rewrite !repeat_app. autorewrite with blit. reflexivity.
  Qed.

  Theorem child_seed_I_hs seed I q :
    length I = 16%nat -> (length seed <= 32)%nat ->
    child_seed_I K H seed I q = hs_child H seed I q.
  Proof.
    intros LI Ls. unfold child_seed_I.
    rewrite (hs_ilen hs_fields), (hs_seed_child_seed hs_fields), !seed_derive_hs by assumption. reflexivity.
  Qed.

  Theorem randomizer_hs seed I q :
    length I = 16%nat -> (length seed <= 32)%nat ->
    randomizer K H seed I q = hs_randomizer H seed I q.
  Proof.
    intros LI Ls. unfold randomizer.
    rewrite (hs_seed_randomizer_seed hs_fields). now apply seed_derive_hs.
  Qed.
End HashSigsProofs.
