(* C14: a constrained build configuration only restricts what is accepted. *)
From HbsLms Require Import Base.Bytes Model.Consts Model.KeyBlob Model.Codec Model.Hss Model.SignCore.
From HbsLms Require Import Proofs.KeyBlobProofs Proofs.SignCoreProofs.

Local Open Scope N_scope.

(* The configuration enters the signer-side entry points only where the parameter bytes of the
   loaded key are decoded: [blob_parse], [hss_signature], [blob_of], [key_increment] and [lifetime]
   of [with_cfg K ..] are those of [K] by conversion. *)
Section Cfg.
  Variable K : consts.
  Variable n : nat.
  Variable H : bytes -> bytes.
  Variables (lv : nat) (hs ws : list N).

  Local Notation K' := (with_cfg K lv hs ws).

  Hypothesis PK : pack_ok K n = true.

  Lemma tbl_params_cfg : tbl_params K' n = tbl_params K n.
  Proof. reflexivity. Qed.

  Lemma params_bytes_cfg ps :
    all_within_limits K' 0 ps = true -> all_within_limits K 0 ps = true ->
    params_to_bytes K' ps = params_to_bytes K ps.
  Proof.
    intros W' W. unfold params_to_bytes. rewrite W', W. reflexivity.
  Qed.

  Theorem keygen_cfg ps seed :
    Forall (fun p => In p (tbl_params K n)) ps -> ps <> [] ->
    all_within_limits K' 0 ps = true -> all_within_limits K 0 ps = true ->
    keygen K' n H ps seed = keygen K n H ps seed.
  Proof.
    intros F Hne W' W. unfold keygen, key_generate.
    rewrite params_bytes_cfg by assumption.
    destruct (params_to_bytes K ps) as [pb| |] eqn:E; cbn [bind]; try reflexivity.
    cbn [k_params k_seed].
    destruct (params_roundtrip K n PK ps pb F Hne E) as [-> _].
    rewrite <- (params_bytes_cfg ps W' W) in E. now destruct (params_roundtrip K' n PK ps pb F Hne E) as [-> _].
  Qed.

  Theorem sign_cfg blob k ps msg cb :
    blob_parse K n blob = Ok k ->
    params_of_bytes K' n (k_params k) = Ok ps -> params_of_bytes K n (k_params k) = Ok ps ->
    sign_core K' n H blob msg cb = sign_core K n H blob msg cb
    /\ get_lifetime K' n blob = get_lifetime K n blob.
  Proof.
    intros EB E' E. rewrite !sign_core_eq, !get_lifetime_eq. unfold sign_prepare.
    rewrite (load_key_parsed K' n blob k EB), (load_key_parsed K n blob k EB), E', E. split; reflexivity.
  Qed.

  Theorem hss_verify_cfg msg sig pk nb rest :
    rd 4 sig = Ok (nb, rest) -> be_dec nb < N.of_nat lv -> be_dec nb < N.of_nat (c_max_levels K) ->
    hss_verify K' n H msg sig pk = hss_verify K n H msg sig pk.
  Proof.
    intros R L1 L2. unfold hss_verify, parse_hss_sig. rewrite R. cbn [bind].
    change (c_max_levels K') with lv.
    destruct (N.leb_spec (N.of_nat lv) (be_dec nb)) as [X%N.le_ngt|_]; [contradiction|].
    destruct (N.leb_spec (N.of_nat (c_max_levels K)) (be_dec nb)) as [X%N.le_ngt|_]; [contradiction|]. reflexivity.
  Qed.

  Theorem keygen_beyond_limits ps seed :
    all_within_limits K' 0 ps = false -> keygen K' n H ps seed = Err.
  Proof.
    intros W. unfold keygen, key_generate, params_to_bytes. rewrite W.
    destruct (Nat.ltb _ _); reflexivity.
  Qed.

  Theorem key_load_beyond_limits blob k msg cb :
    blob_parse K n blob = Ok k -> params_of_bytes K' n (k_params k) = Err ->
    sign_core K' n H blob msg cb = (Err, []) /\ get_lifetime K' n blob = Err.
  Proof.
    intros EB E. rewrite sign_core_eq, get_lifetime_eq. unfold sign_prepare.
    now rewrite (load_key_parsed K' n blob k EB), E.
  Qed.
End Cfg.
