(* Signing histories (C03, C05, C09): from a freshly generated key, any sequence of operations
   releases signatures for the counters 0, 1, 2, ... in order, persists exactly counter + 1
   (or the wiped key) per released signature and nothing else. *)
From HbsLms Require Import Base.Bytes Model.Consts Model.Codec
     Model.Counter Model.KeyBlob Model.Hss Model.SignCore Model.History.
From HbsLms Require Import Proofs.CounterProofs Proofs.HssComplete
     Proofs.KeyBlobProofs Proofs.SignCoreProofs Proofs.SignProofs Proofs.TotalProofs.

Local Open Scope N_scope.

(* The section has many hypotheses, and [lia] makes a lemma depend on every hypothesis in its
   context: a proof that starts with [clear] keeps them out of the closed statement, and
   [Proof using] says which ones the closed statement takes. *)
Section HistoryProofs.
  Variable K : consts.
  Variable n : nat.
  Hypothesis OK : model_ok K n = true.
  Hypothesis HO : heights_ok K = true.
  Variable H : bytes -> bytes.
  Hypothesis H_len : forall x, length (H x) = n.

  (* a generated key: parameter list [ps] (constructible, within the build limits), seed *)
  Variable ps : list param.
  Variable seed pb : bytes.
  Hypothesis F : Forall (fun p => In p (tbl_params K n)) ps.
  Hypothesis Hs : length seed = n.
  Hypothesis EP : params_to_bytes K ps = Ok pb.
  Hypothesis Hne : ps <> [].
  (* [Hsmall] keeps the arithmetic of [incr] and [lifetime] below 2^64; [Hfit] makes every counter of
     the key fit the counter field of the blob (for the 8-byte field of the source it follows
     from [Hsmall]) *)
  Hypothesis Hsmall : sumN (heights_of ps) <= 63.
  Hypothesis Hfit : 2 ^ sumN (heights_of ps) <= 256 ^ N.of_nat (c_used_leafs_size K).

  (* the number of one-time keys (bottom leaves) of the key *)
  Definition total : N := 2 ^ sumN (heights_of ps).

  Definition key_at (j : N) : rfc_key := {| k_counter := j; k_params := pb; k_seed := seed |}.

  (* the persisted key after j released signatures *)
  Definition blob_at (j : N) : bytes :=
    if j <? total then blob_of K (key_at j) else blob_of K (wiped K n).

  Definition sig_at (j : N) (msg : bytes) : bytes :=
    match hss_signature K n H ps seed j msg with Ok s => s | _ => [] end.

  Lemma pb_decodes : params_of_bytes K n pb = Ok ps /\ length pb = c_ref_levels K.
  Proof. exact (params_roundtrip K n (ok_pack K n OK) ps pb F Hne EP). Qed.

  (* [hss_complete] for this key: the signature for counter j exists, parses and carries the leaf
     indices of j *)
  Lemma sig_at_spec j msg :
    hss_signature K n H ps seed j msg = Ok (sig_at j msg)
    /\ exists s, parse_hss_sig K n (sig_at j msg) = Ok s
                 /\ map (fun sp => s_q (fst sp)) (h_spks s) ++ [s_q (h_sig s)] = leaf_digits (heights_of ps) j.
  Proof.
    destruct (generated_wf K n OK ps pb F EP) as [Hlen Fw].
    destruct (hss_complete K n H H_len (ok_ilen K n OK) (ok_levels K n OK) ps seed msg j Hne Hlen Fw)
      as (sg & pk & s & E & _ & _ & PS & D). unfold sig_at. rewrite E. eauto.
  Qed.

  Lemma sig_exists j msg : hss_signature K n H ps seed j msg = Ok (sig_at j msg).
  Proof. apply sig_at_spec. Qed.

  Lemma load_key_at j : j < total -> load_key K n (blob_of K (key_at j)) = Ok (key_at j, ps).
  Proof.
    intros Hj. apply (load_generated K n OK); trivial. exact (N.lt_le_trans _ _ _ Hj Hfit).
  Qed.

  Lemma increment_at j :
    j < total -> blob_of K (key_increment K n (key_at j) ps) = blob_at (j + 1).
  Proof.
    intros Hj. clear - Hsmall Hj. unfold key_increment, blob_at. cbn [key_at k_counter k_params k_seed].
    rewrite incr_small by lia. fold total.
    destruct (N.ltb_spec j (total - 1)), (N.ltb_spec (j + 1) total); try lia; reflexivity.
  Qed.

  Lemma blob_at_lt j : j < total -> blob_at j = blob_of K (key_at j).
  Proof. intros Hj. unfold blob_at. now rewrite (proj2 (N.ltb_lt _ _) Hj). Qed.

  Lemma blob_at_ge j : total <= j -> blob_at j = blob_of K (wiped K n).
  Proof.
    unfold blob_at. destruct (N.ltb_spec j total) as [X%N.lt_nge|]; [contradiction|reflexivity].
  Qed.

  Lemma sign_at j msg cb :
    j < total ->
    sign_core K n H (blob_at j) msg cb
    = if cb (blob_at (j + 1)) then (Ok (sig_at j msg), [(blob_at (j + 1), true)])
      else (Err, [(blob_at (j + 1), false)]).
  Proof.
    intros Hj. rewrite blob_at_lt, sign_core_eq by assumption. unfold sign_prepare.
    rewrite load_key_at by assumption. cbn [bind key_at k_seed k_counter]. rewrite sig_exists.
    now rewrite increment_at.
  Qed.

  Lemma sign_last msg cb :
    let w := blob_of K (wiped K n) in
    snd (sign_core K n H (blob_at (total - 1)) msg cb) = [(w, cb w)]
    /\ length w = length (blob_at (total - 1)).
  Proof.
    intros w. pose proof (pow2_pos (sumN (heights_of ps))) as Hpos. fold total in Hpos. split.
    - rewrite sign_at by (clear - Hpos; lia). replace (total - 1 + 1) with total by (clear - Hpos; lia).
      rewrite blob_at_ge by apply N.le_refl. now destruct (cb _).
    - unfold w. rewrite blob_at_lt, !blob_of_length by (clear - Hpos; lia).
      cbn [wiped key_at k_params k_seed]. now rewrite !repeat_length, (proj2 pb_decodes), Hs.
  Qed.

  (* [get_lifetime_wiped], under hypotheses of this section *)
  Lemma lifetime_wiped : get_lifetime K n (blob_of K (wiped K n)) = Err.
  Proof using OK H_len pb Hs Hsmall Hfit. exact (get_lifetime_wiped K n (ok_pack K n OK)). Qed.

  (* C05: remaining lifetime after j released signatures *)
  Lemma lifetime_at j :
    j < total -> get_lifetime K n (blob_at j) = Ok (N.min (total - j) u64_max).
  Proof.
    intros Hj. clear Hsmall. rewrite blob_at_lt, get_lifetime_eq, load_key_at by assumption. cbn [bind key_at k_counter].
    rewrite lifetime_closed;
      [|destruct ps; [congruence|discriminate]|exact (params_of_bytes_heights K n HO _ _ (proj1 pb_decodes))].
    now rewrite N.mod_small by assumption.
  Qed.

  (* the message an operation releases a signature for, on a live key *)
  Definition releases (o : op) : option bytes :=
    match o with
    | OSign msg true | OSignMem msg => Some msg
    | _ => None
    end.

  (* what a history must do, as a function of the number j of signatures released so far *)
  Fixpoint spec_run (ops : list (op)) (j : N) : N * list bytes :=
    match ops with
    | [] => (j, [])
    | o :: r =>
      let releases :=
          match o with
          | OSign msg true => Some msg
          | OSignMem msg => Some msg
          | _ => None
          end in
      match releases with
      | Some msg =>
        if j <? total
        then let (j', l) := spec_run r (j + 1) in (j', sig_at j msg :: l)
        else spec_run r j
      | None => spec_run r j
      end
    end.

  Lemma spec_run_cons o r j :
    spec_run (o :: r) j =
    match releases o with
    | Some msg => if j <? total then (fst (spec_run r (j + 1)), sig_at j msg :: snd (spec_run r (j + 1)))
                  else spec_run r j
    | None => spec_run r j
    end.
  Proof. cbn [spec_run releases]. now destruct (spec_run r (j + 1)). Qed.

  Lemma step_spec o j :
    step K n H (blob_at j) o =
    match releases o with
    | Some msg => if j <? total then (blob_at (j + 1), Some (sig_at j msg)) else (blob_at j, None)
    | None => (blob_at j, None)
    end.
  Proof.
    assert (S : forall msg cb,
               sign_core K n H (blob_at j) msg cb
               = if j <? total then if cb (blob_at (j + 1)) then (Ok (sig_at j msg), [(blob_at (j + 1), true)])
                                    else (Err, [(blob_at (j + 1), false)])
                 else (Err, [])).
    { intros msg cb. destruct (N.ltb_spec j total); [now apply sign_at|].
      rewrite blob_at_ge by assumption. apply sign_core_wiped, (ok_pack K n OK). }
    destruct o as [msg [|]|msg| |]; cbn [step releases]; unfold signing_key_try_sign; rewrite ?S;
      try reflexivity; now destruct (j <? total).
  Qed.

  Theorem run_spec ops j :
    run K n H ops (blob_at j) = (blob_at (fst (spec_run ops j)), snd (spec_run ops j)).
  Proof using OK H_len F Hs EP Hne Hsmall Hfit.
    revert j; induction ops as [|o r IH]; intros j; [reflexivity|].
    cbn [run]. rewrite step_spec, spec_run_cons.
    destruct (releases o); [destruct (j <? total)|]; rewrite IH; now destruct (spec_run r _).
  Qed.

  (* the released signatures are those of the counters j, j+1, ... in order: the k-th one
     (0-based) of a history started on a fresh key is the signature for counter k; the bound is
     [N.max j total] because a history may start beyond [total], where nothing is released *)
  Lemma spec_run_counters ops j :
    exists msgs,
      snd (spec_run ops j) = map (fun im => sig_at (j + N.of_nat (fst im)) (snd im))
                                 (combine (seq 0 (length msgs)) msgs)
      /\ fst (spec_run ops j) = j + N.of_nat (length msgs)
      /\ (j + N.of_nat (length msgs) <= N.max j total).
  Proof.
    clear OK HO H_len F Hs EP Hne Hsmall Hfit pb.
    revert j; induction ops as [|o r IH]; intros j; [exists []; cbn; repeat split; lia|].
    rewrite spec_run_cons. destruct (releases o) as [msg|]; [|apply IH].
    destruct (N.ltb_spec j total) as [Hj|_]; [|apply IH].
    destruct (IH (j + 1)) as (msgs & E1 & E2 & E3).
    exists (msg :: msgs). cbn [fst snd length seq combine map]. rewrite N.add_0_r.
    split; [|split; lia].
    f_equal. rewrite E1, <- seq_shift, combine_map_l, map_map.
    apply map_ext. intros [i m]. cbn [fst snd]. f_equal. lia.
  Qed.

  Theorem run_fresh ops :
    exists msgs : list bytes,
      run K n H ops (blob_at 0)
      = (blob_at (N.of_nat (length msgs)),
         map (fun im => sig_at (N.of_nat (fst im)) (snd im)) (combine (seq 0 (length msgs)) msgs))
      /\ N.of_nat (length msgs) <= total.
  Proof.
    rewrite run_spec. destruct (spec_run_counters ops 0) as (msgs & E1 & E2 & E3).
    exists msgs. rewrite E1, E2. split; [reflexivity|].
    pose proof (pow2_pos (sumN (heights_of ps))) as P. clear - P E3. lia.
  Qed.
End HistoryProofs.
