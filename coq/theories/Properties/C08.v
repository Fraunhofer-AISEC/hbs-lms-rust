(* C08 -- keys are derived and encoded exactly as the hash-sigs reference does.
   The theorems of Proofs/KeyBlobProofs.v, SignProofs.v, HashSigsProofs.v, RfcCore.v and HssRfc.v at
   the constants of the current source.  The reference derivation is Spec/HashSigs.v (transcribed
   from the reference's construction; not validatable offline -- see DESIGN.md, trusted base). *)
From HbsLms Require Import Base.Bytes Model.Consts Model.Lmots Model.Derive Model.KeyBlob Model.Hss.
From HbsLms Require Import Spec.Rfc8554 Spec.HashSigs.
From HbsLms Require Import Proofs.RfcCore Proofs.HashSigsProofs Proofs.HssRfc Proofs.KeyBlobProofs Proofs.SourceRfc
     Proofs.SignProofs Gen.Generated.
From HbsLms Require Import Properties.C07.

(* the private key blob: counter(8, big endian, zero) || parameter bytes (LMS type in the high
   nibble, LM-OTS type in the low nibble) || 0xff padding to 8 bytes || seed;
   the public key: u32str(L) || u32str(LMS type) || u32str(LM-OTS type) || I || T[1] with (seed0, I)
   from the reference's top-seed hashing, T[1] the RFC 8554 section 5.3 root over the Appendix A
   one-time keys of seed0 *)
Theorem C08_key_layout :
  forall (n : nat) (H : bytes -> bytes) (ps : list param) (seed sk pk : bytes),
    In n hash_sizes -> (forall x, length (H x) = n) ->
    Forall (fun p => In p (tbl_params K_src n)) ps -> length seed = n ->
    keygen K_src n H ps seed = Ok (sk, pk) ->
    sk = be 8 0 ++ map pack_param ps ++ repeat xff (8 - length ps) ++ seed
    /\ match ps with
       | [] => False
       | p0 :: _ =>
         let (s0, I0) := hs_root H seed in
         pk = u32str (N.of_nat (length ps))
                ++ lms_public_key (l_type (snd p0)) (o_type (fst p0)) I0
                     (T H I0 (fun q => alg1_public_key H I0 q (o_w (fst p0)) (N.of_nat (o_p (fst p0))) s0)
                        (N.of_nat (l_h (snd p0))) (l_h (snd p0)) 1)
       end.
Proof.
  intros n H ps seed sk pk Hn HL F Ls E.
  destruct (keygen_inv K_src n (C01.model_ok_n n Hn) H ps seed sk pk F E) as (pb & EP & Hne & EK & ->).
  split.
  - apply params_to_bytes_Ok in EP as (_ & _ & ->). unfold blob_of. cbn [k_counter k_params k_seed].
    now rewrite <- app_assoc.
  - assert (Ls' : (length seed <= 32)%nat) by (pose proof (n_range n Hn); lia).
    exact (hss_public_key_layout K_src n H HL (n_range n Hn) source_consts_rfc source_consts_hashsigs ps seed pk Ls' EK).
Qed.

Theorem C08_parameter_byte :
  forall p : param, pack_param p = n2b ((l_type (snd p) mod 256) * 16 + o_type (fst p) mod 256).
Proof. reflexivity. Qed.

(* parameter bytes decode back to the parameter list (1..8 levels) *)
Theorem C08_parameter_roundtrip :
  forall (n : nat) (ps : list param) (pb : bytes),
    In n hash_sizes -> Forall (fun p => In p (tbl_params K_src n)) ps -> ps <> [] ->
    params_to_bytes K_src ps = Ok pb ->
    params_of_bytes K_src n pb = Ok ps /\ length pb = 8%nat.
Proof.
  intros n ps pb Hn F Hne E.
  exact (params_roundtrip K_src n (ok_pack K_src n (C01.model_ok_n n Hn)) ps pb F Hne E).
Qed.

(* top-level seed / identifier, child seed / identifier, signature randomizer, chain-start values:
   the reference's blocks *)
Theorem C08_derivation :
  forall (n : nat) (H : bytes -> bytes) (seed I : bytes) (q : N) (prm : otsp),
    In n hash_sizes -> (forall x, length (H x) = n) -> length I = 16%nat -> (length seed <= 32)%nat ->
    root_seed_I K_src H seed = hs_root H seed
    /\ child_seed_I K_src H seed I q = hs_child H seed I q
    /\ randomizer K_src H seed I q = hs_randomizer H seed I q
    /\ ots_priv H I q seed prm = map (fun i => x_qi H I q (N.of_nat i) seed) (seq 0 (o_p prm)).
Proof.
  intros n H seed I q prm Hn HL LI Ls.
  pose proof (H_len32 n H HL (n_range n Hn)) as H32.
  repeat split.
  - exact (root_seed_I_hs K_src H source_consts_hashsigs H32 seed Ls).
  - exact (child_seed_I_hs K_src H source_consts_hashsigs H32 seed I q LI Ls).
  - exact (randomizer_hs K_src H source_consts_hashsigs H32 seed I q LI Ls).
  - apply ots_priv_rfc.
Qed.

Theorem C08_hash_input_layouts : src_hash_inputs = HashInputs.model_hash_inputs.
Proof. exact C07_hash_input_layouts. Qed.

Print Assumptions C08_hash_input_layouts.
Print Assumptions C08_key_layout.
Print Assumptions C08_parameter_roundtrip.
Print Assumptions C08_derivation.
