(* The private key blob and its parameter bytes: when the blob parses and the bytes decode
   ([blob_parse_Ok], [params_of_bytes_Ok], [load_key]), that neither unwinds, and the round trips
   under the table side condition [pack_ok]. *)
From HbsLms Require Import Base.Bytes Model.Consts Model.Counter Model.KeyBlob.

Local Open Scope N_scope.

Definition param_eqb (a b : otsp * lmsp) : bool :=
  otsp_eqb (fst a) (fst b) && lmsp_eqb (snd a) (snd b).

Lemma param_eqb_eq a b : param_eqb a b = true <-> a = b.
Proof.
  destruct a as [o l], b as [o' l']. unfold param_eqb. cbn [fst snd].
  rewrite andb_true_iff, otsp_eqb_eq, lmsp_eqb_eq. split; [intros [-> ->]; reflexivity|intros [= -> ->]; auto].
Qed.

Section Blob.
  Variable K : consts.
  Variable n : nat.

  Lemma blob_of_length k :
    length (blob_of K k) = (c_used_leafs_size K + length (k_params k) + length (k_seed k))%nat.
  Proof. unfold blob_of. rewrite !app_length, be_length. lia. Qed.

  (* ReferenceImplPrivateKey::to_binary_representation / from_binary_representation *)
  Lemma blob_parse_Ok b k :
    blob_parse K n b = Ok k <->
    b = blob_of K k /\ length (k_params k) = c_ref_levels K /\ length (k_seed k) = n
    /\ k_counter k < 256 ^ N.of_nat (c_used_leafs_size K).
  Proof.
    unfold blob_parse, blob_of. split.
    - destruct (Nat.eqb_spec (length b) (c_used_leafs_size K + c_ref_levels K + n)) as [L|]; [|discriminate].
      cbn [negb].
      destruct (read (c_used_leafs_size K) b) as [[cb r1]|] eqn:R1; [|discriminate].
      destruct (read (c_ref_levels K) r1) as [[pb r2]|] eqn:R2; [|discriminate].
      destruct (read n r2) as [[sd r3]|] eqn:R3; [|discriminate]. intros [= <-].
      apply read_Some in R1 as [-> L1], R2 as [-> L2], R3 as [-> L3]. cbn [k_counter k_params k_seed].
      rewrite !app_length in L. assert (r3 = []) as -> by (destruct r3; [reflexivity|cbn [length] in L; lia]).
      rewrite app_nil_r, <- L1, be_be_dec. repeat split; trivial. apply be_dec_lt.
    - intros (-> & Hp & Hs & Hc).
      destruct (Nat.eqb_spec (length (be (c_used_leafs_size K) (k_counter k) ++ k_params k ++ k_seed k))
                             (c_used_leafs_size K + c_ref_levels K + n)) as [_|X];
        [|rewrite !app_length, be_length in X; lia]. cbn [negb].
      rewrite read_app by apply be_length. rewrite read_app by assumption.
      rewrite <- (app_nil_r (k_seed k)), read_app by assumption.
      rewrite be_dec_be, N.mod_small by assumption. now destruct k.
  Qed.

  Lemma blob_parse_of k :
    length (k_params k) = c_ref_levels K -> length (k_seed k) = n ->
    k_counter k < 256 ^ N.of_nat (c_used_leafs_size K) ->
    blob_parse K n (blob_of K k) = Ok k.
  Proof. intros. now apply blob_parse_Ok. Qed.

  Lemma blob_parse_total b : blob_parse K n b <> Panic.
  Proof.
    unfold blob_parse.
    destruct (Nat.eqb_spec (length b) (c_used_leafs_size K + c_ref_levels K + n)) as [L|]; [|discriminate].
    destruct (read_ok (c_used_leafs_size K) b) as (cb & r1 & -> & L1); [lia|].
    destruct (read_ok (c_ref_levels K) r1) as (pb & r2 & -> & L2); [lia|].
    destruct (read_ok n r2) as (sd & r3 & -> & _); [lia|]. discriminate.
  Qed.

  (* ReferenceImplPrivateKey::increment keeps the blob's length, also when it wipes the key *)
  Lemma key_increment_length k ps :
    length (k_params k) = c_ref_levels K -> length (k_seed k) = n ->
    length (blob_of K (key_increment K n k ps)) = length (blob_of K k).
  Proof.
    intros Hp Hs. unfold key_increment. rewrite !blob_of_length.
    destruct (incr _ _); cbn [k_params k_seed wiped]; rewrite ?repeat_length; lia.
  Qed.

  Lemma params_decode_total i bs : params_decode K n i bs <> Panic.
  Proof.
    revert i; induction bs as [|b r IH]; intros i; cbn [params_decode]; [discriminate|].
    destruct (_ =? _); [discriminate|].
    destruct (ots_of_u32 _ _ _); [|discriminate]. destruct (lms_of_u32 _ _); [|discriminate].
    destruct (within_limits _ _ _); [|discriminate]. apply bind_total; [apply IH|discriminate].
  Qed.

  (* whatever holds of every decodable in-limits pair holds of a decoded list *)
  Lemma params_decode_Forall (P : param -> Prop) :
    (forall b i o l, ots_of_u32 K n (N.land (b2n b) 15) = Some o -> lms_of_u32 K (N.shiftr (b2n b) 4) = Some l ->
                     within_limits K i (o, l) = true -> P (o, l)) ->
    forall i bs ps, params_decode K n i bs = Ok ps -> Forall P ps.
  Proof.
    intros HP i bs; revert i; induction bs as [|b r IH]; intros i ps; cbn [params_decode].
    - intros [= <-]. constructor.
    - destruct (_ =? _); [intros [= <-]; constructor|].
      destruct (ots_of_u32 _ _ _) as [o|] eqn:EO; [|discriminate].
      destruct (lms_of_u32 _ _) as [l|] eqn:EL; [|discriminate].
      destruct (within_limits _ _ _) eqn:W; [|discriminate].
      intros E. apply bind_Ok in E as (rest & ER & [= <-]). constructor; eauto.
  Qed.

  Lemma params_of_bytes_Ok bs ps :
    params_of_bytes K n bs = Ok ps <-> params_decode K n 0 bs = Ok ps /\ ps <> [].
  Proof.
    unfold params_of_bytes. split.
    - intros E. apply bind_Ok in E as (l & ED & E). destruct l; [discriminate|]. injection E as <-. now split.
    - intros [-> Hne]. cbn [bind]. now destruct ps.
  Qed.

  Lemma params_of_bytes_total bs : params_of_bytes K n bs <> Panic.
  Proof.
    apply bind_total; [apply params_decode_total|]. now intros [|].
  Qed.

  (* the first half of every signer-side entry point: ReferenceImplPrivateKey::from_binary_representation,
     then CompressedParameterSet::to *)
  Definition load_key (blob : bytes) : res (rfc_key * list param) :=
    do k <- blob_parse K n blob;
    do ps <- params_of_bytes K n (k_params k);
    Ok (k, ps).

  Lemma load_key_Ok blob k ps :
    load_key blob = Ok (k, ps) <-> blob_parse K n blob = Ok k /\ params_of_bytes K n (k_params k) = Ok ps.
  Proof.
    unfold load_key. split.
    - intros E. apply bind_Ok in E as (k' & EB & E). apply bind_Ok in E as (ps' & EP & [= <- <-]). now split.
    - intros [-> EP]. cbn [bind]. now rewrite EP.
  Qed.

  Lemma load_key_parsed blob k :
    blob_parse K n blob = Ok k -> load_key blob = (do ps <- params_of_bytes K n (k_params k); Ok (k, ps)).
  Proof. intros EB. unfold load_key. now rewrite EB. Qed.

  Lemma load_key_total blob : load_key blob <> Panic.
  Proof.
    apply bind_total; [apply blob_parse_total|intros k].
    apply bind_total; [apply params_of_bytes_total|discriminate].
  Qed.

  (* CompressedParameterSet::from *)
  Lemma params_to_bytes_Ok ps pb :
    params_to_bytes K ps = Ok pb <->
    (length ps <= c_ref_levels K)%nat /\ all_within_limits K 0 ps = true
    /\ pb = map pack_param ps ++ repeat (n2b (c_param_set_end K)) (c_ref_levels K - length ps).
  Proof.
    unfold params_to_bytes. destruct (Nat.ltb_spec (c_ref_levels K) (length ps)).
    - split; [discriminate|lia].
    - destruct (all_within_limits K 0 ps); cbn [negb]; split; try discriminate; try (now intros (_ & E & _)).
      + now intros [= <-].
      + now intros (_ & _ & ->).
  Qed.

  Lemma key_generate_total ps seed : key_generate K ps seed <> Panic.
  Proof.
    unfold key_generate, params_to_bytes. destruct (Nat.ltb _ _); [discriminate|]. now destruct (negb _).
  Qed.
End Blob.

#[export] Hint Resolve params_of_bytes_total load_key_total key_generate_total : total.

Section KeyBlobProofs.
  Variable K : consts.
  Variable n : nat.

  (* every parameter pair the API can construct: callers name enum variants (the keys of
     [c_ots_construct] / [c_lms_construct]); type codes occur only in serialised data *)
  Definition tbl_params : list (otsp * lmsp) :=
    flat_map (fun ov => match ots_construct K n (fst ov) with
                        | Some o => flat_map (fun lv => match lms_construct K (fst lv) with
                                                        | Some l => [(o, l)]
                                                        | None => []
                                                        end) (c_lms_construct K)
                        | None => []
                        end) (c_ots_construct K).

  (* decoding one parameter byte (the nibble split of CompressedParameterSet::to) *)
  Definition decode_byte (b : byte) : option (otsp * lmsp) :=
    match ots_of_u32 K n (N.land (b2n b) 15), lms_of_u32 K (N.shiftr (b2n b) 4) with
    | Some o, Some l => Some (o, l)
    | _, _ => None
    end.

  (* table side condition: packing then decoding is the identity, and no packed byte is the
     end marker.  Decided by computation for a concrete table. *)
  Definition pack_ok : bool :=
    (c_param_set_end K <? 256) &&
    forallb (fun p => match decode_byte (pack_param p) with
                      | Some p' => param_eqb p' p
                      | None => false
                      end && negb (b2n (pack_param p) =? c_param_set_end K)) tbl_params.

  Lemma decoded_in_tbl co cl o l :
    ots_of_u32 K n co = Some o -> lms_of_u32 K cl = Some l -> In (o, l) tbl_params.
  Proof.
    intros EO EL. unfold ots_of_u32 in EO. unfold lms_of_u32 in EL.
    destruct (assoc _ (c_ots_from_u32 K)) as [ov|]; [|discriminate].
    destruct (assoc _ (c_lms_from_u32 K)) as [lv|]; [|discriminate].
    pose proof EO as CO. pose proof EL as CL. unfold ots_construct in EO. unfold lms_construct in EL.
    destruct (assoc ov (c_ots_construct K)) as [orow|] eqn:AO; [|discriminate].
    destruct (assoc lv (c_lms_construct K)) as [lrow|] eqn:AL; [|discriminate].
    apply assoc_In in AO, AL.
    apply in_flat_map. exists (ov, orow). split; [exact AO|]. cbn [fst]. rewrite CO.
    apply in_flat_map. exists (lv, lrow). split; [exact AL|]. cbn [fst]. rewrite CL. now left.
  Qed.

  Lemma params_of_bytes_in_tbl bs ps :
    params_of_bytes K n bs = Ok ps -> Forall (fun p => In p tbl_params) ps.
  Proof.
    intros E. apply params_of_bytes_Ok in E as [E _]. revert E. apply params_decode_Forall.
    intros b i o l EO EL _. exact (decoded_in_tbl _ _ o l EO EL).
  Qed.

  Hypothesis PK : pack_ok = true.

  Lemma end_small : c_param_set_end K < 256.
  Proof. apply andb_true_iff in PK. apply N.ltb_lt. tauto. Qed.

  Lemma pack_decode p :
    In p tbl_params ->
    ots_of_u32 K n (N.land (b2n (pack_param p)) 15) = Some (fst p)
    /\ lms_of_u32 K (N.shiftr (b2n (pack_param p)) 4) = Some (snd p)
    /\ b2n (pack_param p) <> c_param_set_end K.
  Proof.
    intros Hin. pose proof PK as P. apply andb_true_iff in P. destruct P as [_ P].
    rewrite forallb_forall in P. specialize (P p Hin).
    apply andb_true_iff in P. destruct P as [A B]. unfold decode_byte in A.
    destruct (ots_of_u32 K n (N.land (b2n (pack_param p)) 15)) as [o|]; [|discriminate].
    destruct (lms_of_u32 K (N.shiftr (b2n (pack_param p)) 4)) as [l|]; [|discriminate].
    apply param_eqb_eq in A. subst p. repeat split.
    apply negb_true_iff, N.eqb_neq in B. exact B.
  Qed.

  Lemma params_decode_pack ps i k :
    Forall (fun p => In p tbl_params) ps ->
    all_within_limits K i ps = true ->
    params_decode K n i (map pack_param ps ++ repeat (n2b (c_param_set_end K)) k) = Ok ps.
  Proof.
    intros F; revert i; induction F as [|p ps Hp _ IH]; intros i W.
    - cbn [map app]. destruct k as [|k]; [reflexivity|]. cbn [repeat params_decode].
      rewrite b2n_n2b, N.mod_small by apply end_small. now rewrite N.eqb_refl.
    - cbn [map app params_decode]. destruct (pack_decode p Hp) as [Eo [El Ne]].
      apply N.eqb_neq in Ne. rewrite Ne, Eo, El.
      cbn [all_within_limits] in W. apply andb_true_iff in W. destruct W as [W1 W2].
      destruct p as [o l]. cbn [fst snd] in *. rewrite W1. rewrite IH by assumption. reflexivity.
  Qed.

  (* CompressedParameterSet::from followed by ::to is the identity on constructible lists *)
  Lemma params_decode_roundtrip ps pb :
    Forall (fun p => In p tbl_params) ps -> params_to_bytes K ps = Ok pb ->
    params_decode K n 0 pb = Ok ps /\ length pb = c_ref_levels K.
  Proof.
    intros F E. apply params_to_bytes_Ok in E as (Hlen & W & ->). split.
    - now apply params_decode_pack.
    - rewrite app_length, map_length, repeat_length. lia.
  Qed.

  Lemma params_roundtrip ps pb :
    Forall (fun p => In p tbl_params) ps -> ps <> [] ->
    params_to_bytes K ps = Ok pb ->
    params_of_bytes K n pb = Ok ps /\ length pb = c_ref_levels K.
  Proof.
    intros F Hne E. destruct (params_decode_roundtrip ps pb F E) as [D L].
    split; [now apply params_of_bytes_Ok|exact L].
  Qed.

  (* ReferenceImplPrivateKey::wipe leaves parameter bytes that do not decode: the key no longer loads *)
  Lemma load_wiped : load_key K n (blob_of K (wiped K n)) = Err.
  Proof.
    unfold load_key. rewrite blob_parse_of; [|apply repeat_length..|apply N.neq_0_lt_0, N.pow_nonzero; lia].
    cbn [bind wiped k_params]. unfold params_of_bytes.
    destruct (c_ref_levels K) as [|r]; cbn [repeat params_decode bind]; [reflexivity|].
    now rewrite b2n_n2b, N.mod_small, N.eqb_refl by apply end_small.
  Qed.
End KeyBlobProofs.
