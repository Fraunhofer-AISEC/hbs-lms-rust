(* C11 -- key generation and signing reject malformed inputs instead of crashing.
   The proofs are in Proofs/TotalProofs.v; [C11_malformed_key_no_callback] is read off [sign_core] here.
   [Panic] is the model's outcome for "the Rust code unwinds".  The auxiliary-buffer clause
   (empty, shorter than its header, corrupted level word, any contents) is
   [C11_aux_view_total], [C11_sign_with_aux_total], [C11_keygen_with_aux_total]
   (proofs in Proofs/AuxTotal.v). *)
From HbsLms Require Import Base.Bytes Model.KeyBlob Model.Hss Model.SignCore Model.Aux.
From HbsLms Require Import Proofs.TotalProofs Proofs.AuxTotal Gen.Generated.
From HbsLms Require Properties.C13.

(* key generation with ANY parameter list (empty, longer than eight levels, beyond the build
   limits) and any seed *)
Theorem C11_keygen_total :
  forall (n : nat) (H : bytes -> bytes) (ps : list param) (seed : bytes),
    keygen K_src n H ps seed <> Panic.
Proof. apply keygen_total. Qed.

(* signing with ANY private-key bytes (wrong length, invalid parameter bytes, wiped) *)
Theorem C11_sign_total :
  forall (n : nat) (H : bytes -> bytes) (blob msg : bytes) (cb : bytes -> bool),
    fst (sign_core K_src n H blob msg cb) <> Panic.
Proof. apply sign_core_total. Qed.

(* lifetime queries with ANY private-key bytes *)
Theorem C11_lifetime_total :
  forall (n : nat) (key : bytes), get_lifetime K_src n key <> Panic.
Proof. intros. apply get_lifetime_total. exact C13.C13_source_heights_ok. Qed.

(* on these error paths the callback is not invoked with an accepted key and nothing is released:
   a malformed key (unparsable blob or parameter bytes) never reaches the callback at all *)
Theorem C11_malformed_key_no_callback :
  forall (n : nat) (H : bytes -> bytes) (blob msg : bytes) (cb : bytes -> bool),
    (blob_parse K_src n blob = Err \/
     exists k, blob_parse K_src n blob = Ok k /\ params_of_bytes K_src n (k_params k) = Err) ->
    sign_core K_src n H blob msg cb = (Err, []).
Proof.
  intros n H blob msg cb [E|[k [E1 E2]]]; unfold sign_core.
  - now rewrite E.
  - now rewrite E1, E2.
Qed.

(* obligation on the aux constants of the current source (header offset, marker position, the
   in-use bit 31 lies above every tree level), decided by computation *)
Lemma source_aux_consts_ok : aux_consts_ok K_src = true.
Proof. vm_compute. reflexivity. Qed.

(* whatever the buffer contains -- empty, one byte, a level word announcing more layers than the
   buffer holds, garbage behind a zero first byte -- the view is either absent or a well-split
   cache; the layer split never runs past the end of the buffer *)
Theorem C11_aux_view_total :
  forall (n : nat) (H : bytes -> bytes) (aux seed : bytes) (h0 : nat),
    exists oe aux1, get_expanded K_src n H aux seed h0 = Ok (oe, aux1).
Proof. intros n H. exact (get_expanded_total K_src n H source_aux_consts_ok). Qed.

Theorem C11_sign_with_aux_total :
  forall (n : nat) (H : bytes -> bytes) (blob msg aux : bytes) (cb : bytes -> bool),
    fst (fst (sign_core_aux K_src n H blob msg aux cb)) <> Panic.
Proof. intros n H. exact (sign_core_aux_total K_src n H source_aux_consts_ok). Qed.

Theorem C11_keygen_with_aux_total :
  forall (n : nat) (H : bytes -> bytes) (ps : list param) (seed aux : bytes),
    keygen_aux K_src n H ps seed aux <> Panic.
Proof. intros n H. exact (keygen_aux_total K_src n H source_aux_consts_ok). Qed.

(* non-vacuity: a wiped key and a key with an invalid parameter nibble are such malformed keys *)
Example ex_C11_malformed :
  params_of_bytes K_src 32 (unhex "ffffffffffffffff") = Err
  /\ params_of_bytes K_src 32 (unhex "35ffffffffffffff") = Err
  /\ is_ok (params_of_bytes K_src 32 (unhex "13ffffffffffffff")) = true.
Proof. vm_compute. repeat split. Qed.

Print Assumptions C11_keygen_total.
Print Assumptions C11_sign_total.
Print Assumptions C11_lifetime_total.
Print Assumptions C11_malformed_key_no_callback.
Print Assumptions C11_aux_view_total.
Print Assumptions C11_sign_with_aux_total.
Print Assumptions C11_keygen_with_aux_total.
