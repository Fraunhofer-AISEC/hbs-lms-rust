(* C07, "every length equals the RFC formula": the length of a released HSS signature and of the
   public key, for every hash with n-byte output, every parameter list and every counter. *)
From HbsLms Require Import Base.Bytes Model.Consts Model.Lmots Model.Lms Model.KeyBlob Model.Hss.
From HbsLms Require Import Proofs.HssComplete.

Section Lengths.
  Variable K : consts.
  Variable n : nat.
  Variable H : bytes -> bytes.
  Hypothesis H_len : forall x, length (H x) = n.

  (* RFC 8554: an LM-OTS signature is 4 + n * (p + 1) bytes (4.5), an LMS signature
     12 + n * (p + 1) + n * h bytes (5.4), an LMS public key 8 + 16 + n bytes (5.3); the 16 is
     the identifier length [c_ilen K] *)
  Definition lms_sig_len (p : param) : nat := (12 + n * (o_p (fst p) + 1) + n * l_h (snd p))%nat.
  Definition lms_pk_len : nat := (8 + c_ilen K + n)%nat.

  Lemma lms_sign_bytes_length I seed (p : param) q C msg :
    length C = n ->
    length (lms_sign_bytes K n H I seed (fst p) (snd p) q C msg) = lms_sig_len p.
  Proof.
    intros LC. unfold lms_sign_bytes, ots_sig_bytes, lms_sig_len.
    rewrite !app_length, !be_length.
    rewrite (concat_length_const n _ (ots_sign_ys_sizes K n H H_len I q seed (fst p) C msg)), ots_sign_ys_length.
    rewrite (concat_length_const n _ (auth_path_sizes K n H H_len I seed (fst p) (snd p) q)), auth_path_length.
    lia.
  Qed.

  Lemma tree_pk_length (p : param) seed I : length I = c_ilen K -> length (tree_pk K n H p seed I) = lms_pk_len.
  Proof.
    intros LI. unfold tree_pk, lms_pk_bytes, lms_root, lms_pk_len.
    rewrite !app_length, !be_length, (tree_length K n H H_len). lia.
  Qed.

  Hypothesis ilen_le : (c_ilen K <= n)%nat.

  Lemma expand_lengths below seed I p q spks bottom :
    length I = c_ilen K ->
    expand K n H seed I p q below = (spks, bottom) ->
    map (@length byte) spks = map (fun pp => (lms_sig_len pp + lms_pk_len)%nat) (removelast (p :: map fst below))
    /\ forall d, snd (fst bottom) = last (p :: map fst below) d.
  Proof.
    revert below seed I p q spks bottom. apply expand_ind.
    - intros seed I q _. now apply (child_I_length K n).
    - split; reflexivity.
    - intros seed I p q p' q' rest cs cI spks bottom _ LcI _ [A B]. split; [|exact B].
      cbn [map]. rewrite A, app_length, lms_sign_bytes_length, tree_pk_length by (assumption || now apply randomizer_length).
      reflexivity.
  Qed.

  Definition sumnat (l : list nat) : nat := fold_right Nat.add 0%nat l.

  Lemma concat_length_sum (xs : list bytes) : length (concat xs) = sumnat (map (@length byte) xs).
  Proof. induction xs as [|x xs IH]; cbn; [reflexivity|]. now rewrite app_length, IH. Qed.

  (* the released signature: u32(L-1), then for every level but the last an LMS signature and an LMS
     public key, then the LMS signature of the message.  The default handed to [last] plays no
     part: [ps] is not empty when a signature comes out. *)
  Theorem hss_signature_length ps seed c msg sig :
    hss_signature K n H ps seed c msg = Ok sig ->
    length sig = (4 + sumnat (map (fun pp => (lms_sig_len pp + lms_pk_len)%nat) (removelast ps))
                  + lms_sig_len (last ps (hd ({| o_type := 0; o_w := 0; o_p := 0; o_ls := 0 |}, {| l_type := 0; l_h := 0 |}) ps)))%nat.
  Proof.
    intros (p0 & q0 & below & EC & ->)%hss_signature_Ok.
    destruct (combine_leaf_digits ps c) as [Ef _]. rewrite EC in Ef. subst ps. clear EC.
    destruct (expand K n H _ _ p0 q0 below) as [spks [[[bseed bI] bp] bq]] eqn:EE.
    destruct (expand_lengths _ _ _ _ _ _ _ (root_I_length K n H H_len ilen_le seed) EE) as [A B].
    cbn [fst snd bottom_sig].
    rewrite !app_length, concat_length_sum, A, lms_sign_bytes_length by now apply randomizer_length.
    now rewrite <- B.
  Qed.

  Theorem hss_public_key_length ps seed pk :
    hss_public_key K n H ps seed = Ok pk -> length pk = (4 + lms_pk_len)%nat.
  Proof.
    intros (p0 & ps' & -> & ->)%hss_public_key_Ok.
    rewrite app_length, tree_pk_length by apply (root_I_length K n H H_len ilen_le). reflexivity.
  Qed.
End Lengths.
