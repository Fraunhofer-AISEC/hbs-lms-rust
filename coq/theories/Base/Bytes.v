(* Bytes, big-endian integers, checked slicing, the [res] outcome type. *)
From Coq Require Export List NArith ZArith Lia Bool.
From Coq Require Export Strings.Byte.
Export Coq.Strings.String.StringSyntax.
Delimit Scope string_scope with string.
Export ListNotations.
From Coq Require Export ZifyNat ZifyN.

Global Arguments N.add : simpl never.
Global Arguments N.sub : simpl never.
Global Arguments N.mul : simpl never.
Global Arguments N.div : simpl never.
Global Arguments N.modulo : simpl never.
Global Arguments N.pow : simpl never.
Global Arguments N.eqb : simpl never.
Global Arguments N.ltb : simpl never.
Global Arguments N.leb : simpl never.
Global Arguments N.shiftl : simpl never.
Global Arguments N.shiftr : simpl never.
Global Arguments N.land : simpl never.
Global Arguments N.lor : simpl never.
Global Arguments N.lxor : simpl never.

Notation bytes := (list byte) (only parsing).

(* Outcome of a piece of Rust code: value, error return, or unwinding. *)

Inductive res (A : Type) : Type :=
| Ok (a : A)
| Err
| Panic.
Arguments Ok {A} a.
Arguments Err {A}.
Arguments Panic {A}.

Definition bind {A B} (r : res A) (f : A -> res B) : res B :=
  match r with
  | Ok a => f a
  | Err => Err
  | Panic => Panic
  end.

Notation "'do' x <- r ; k" := (bind r (fun x => k))
  (at level 200, x pattern, r at level 100, k at level 200, right associativity).

Definition of_option {A} (o : option A) : res A :=
  match o with Some a => Ok a | None => Err end.

Definition of_option_panic {A} (o : option A) : res A :=
  match o with Some a => Ok a | None => Panic end.

Definition is_ok {A} (r : res A) : bool :=
  match r with Ok _ => true | _ => false end.

Lemma bind_Ok {A B} (r : res A) (f : A -> res B) b :
  bind r f = Ok b <-> exists a, r = Ok a /\ f a = Ok b.
Proof.
  destruct r as [a| |]; cbn; split; try discriminate; try (intros [a' [E _]]; discriminate E).
  - now exists a.
  - now intros [a' [[= ->] E]].
Qed.

Lemma bind_total {A B} (r : res A) (f : A -> res B) :
  r <> Panic -> (forall a, f a <> Panic) -> bind r f <> Panic.
Proof. destruct r; cbn; auto; discriminate. Qed.

Lemma bind_of_option_Ok {A B} (o : option A) (g : A -> res B) x :
  (do a <- of_option o; g a) = Ok x <-> exists a, o = Some a /\ g a = Ok x.
Proof.
  destruct o as [a|]; cbn; split; try discriminate; [eauto|now intros (? & [= ->] & G)|now intros (? & [=] & _)].
Qed.

Lemma of_option_total {A} (o : option A) : of_option o <> Panic.
Proof. destruct o; discriminate. Qed.

(* totality proofs go through a [do] block one step at a time; the steps themselves are looked up
   in the hint database [total] *)
Create HintDb total.
#[export] Hint Resolve of_option_total : total.
Tactic Notation "bind_total" "as" simple_intropattern(p) :=
  apply bind_total; [solve [auto with total] | intros p].
Ltac bind_total := first [bind_total as [? ?] | bind_total as ?].

Definition b2n (b : byte) : N := Byte.to_N b.

Definition n2b (x : N) : byte :=
  match Byte.of_N (x mod 256) with
  | Some b => b
  | None => x00
  end.

Lemma b2n_lt b : (b2n b < 256)%N.
Proof. unfold b2n. pose proof (Byte.to_N_bounded b). lia. Qed.

Lemma n2b_b2n b : n2b (b2n b) = b.
Proof.
  unfold n2b, b2n. rewrite N.mod_small by (pose proof (Byte.to_N_bounded b); lia).
  now rewrite Byte.of_to_N.
Qed.

Lemma b2n_n2b x : b2n (n2b x) = (x mod 256)%N.
Proof.
  unfold n2b.
  destruct (Byte.of_N (x mod 256)) as [b|] eqn:E.
  - now apply Byte.to_of_N.
  - apply Byte.of_N_None_iff in E.
    lia.
Qed.

Lemma b2n_inj a b : b2n a = b2n b -> a = b.
Proof. intros E. rewrite <- (n2b_b2n a), <- (n2b_b2n b). now rewrite E. Qed.

Definition byte_eqb : byte -> byte -> bool := Byte.eqb.

Fixpoint bytes_eqb (a b : bytes) : bool :=
  match a, b with
  | [], [] => true
  | x :: a', y :: b' => Byte.eqb x y && bytes_eqb a' b'
  | _, _ => false
  end.

Lemma bytes_eqb_eq a b : bytes_eqb a b = true <-> a = b.
Proof.
  revert b; induction a as [|x a IH]; intros [|y b]; cbn; try (split; congruence).
  rewrite andb_true_iff, IH. split.
  - intros [E ->]. apply Byte.byte_dec_bl in E. now subst.
  - intros E. injection E as -> ->. split; [apply Byte.byte_dec_lb|]; reflexivity.
Qed.

Lemma bytes_eqb_refl a : bytes_eqb a a = true.
Proof. now apply bytes_eqb_eq. Qed.

(* [be k x] : the k low-order bytes of x, most significant first. *)
Fixpoint be (k : nat) (x : N) : bytes :=
  match k with
  | O => []
  | S k' => be k' (x / 256) ++ [n2b x]
  end.

Fixpoint be_dec_acc (acc : N) (l : bytes) : N :=
  match l with
  | [] => acc
  | b :: l' => be_dec_acc (acc * 256 + b2n b) l'
  end.

Definition be_dec (l : bytes) : N := be_dec_acc 0 l.

Lemma be_length k x : length (be k x) = k.
Proof.
  revert x; induction k as [|k IH]; intros x; cbn [be]; [reflexivity|].
  rewrite app_length, IH; cbn; lia.
Qed.

Lemma be_dec_acc_app acc a b :
  be_dec_acc acc (a ++ b) = be_dec_acc (be_dec_acc acc a) b.
Proof. revert acc; induction a as [|x a IH]; intros acc; [reflexivity|apply IH]. Qed.

Lemma be_dec_acc_spec acc l :
  be_dec_acc acc l = (acc * 256 ^ N.of_nat (length l) + be_dec l)%N.
Proof.
  unfold be_dec. revert acc; induction l as [|b l IH]; intros acc.
  - cbn. change (256 ^ 0)%N with 1%N. lia.
  - cbn [be_dec_acc length]. rewrite IH. rewrite (IH (0 * 256 + b2n b)%N).
    rewrite Nat2N.inj_succ, N.pow_succ_r'. ring.
Qed.

Lemma be_dec_be k x : be_dec (be k x) = (x mod 256 ^ N.of_nat k)%N.
Proof.
  revert x; induction k as [|k IH]; intros x.
  - now rewrite N.mod_1_r.
  - cbn [be]. unfold be_dec. rewrite be_dec_acc_app.
    rewrite IH. cbn [be_dec_acc]. rewrite b2n_n2b.
    rewrite Nat2N.inj_succ, N.pow_succ_r'.
    rewrite N.mod_mul_r by (try apply N.pow_nonzero; lia).
    lia.
Qed.

Lemma be_dec_lt l : (be_dec l < 256 ^ N.of_nat (length l))%N.
Proof.
  induction l as [|b l IH] using rev_ind.
  - cbn. change (256 ^ 0)%N with 1%N. lia.
  - unfold be_dec. rewrite be_dec_acc_app. fold (be_dec l). cbn [be_dec_acc].
    rewrite app_length. rewrite Nat.add_1_r, Nat2N.inj_succ, N.pow_succ_r'.
    pose proof (b2n_lt b). lia.
Qed.

Lemma be_be_dec l : be (length l) (be_dec l) = l.
Proof.
  induction l as [|b l IH] using rev_ind; [reflexivity|].
  rewrite app_length. rewrite Nat.add_1_r. cbn [be].
  unfold be_dec. rewrite be_dec_acc_app. fold (be_dec l). cbn [be_dec_acc].
  pose proof (b2n_lt b) as Hb.
  replace ((be_dec l * 256 + b2n b) / 256)%N with (be_dec l) by lia.
  rewrite IH. f_equal. f_equal.
  rewrite <- (n2b_b2n b) at 2. unfold n2b.
  replace ((be_dec l * 256 + b2n b) mod 256)%N with (b2n b mod 256)%N by lia. reflexivity.
Qed.

Lemma be_inj k x y :
  (x < 256 ^ N.of_nat k)%N -> (y < 256 ^ N.of_nat k)%N -> be k x = be k y -> x = y.
Proof.
  intros Hx Hy E. apply (f_equal be_dec) in E. rewrite !be_dec_be in E.
  now rewrite !N.mod_small in E by assumption.
Qed.

Local Open Scope N_scope.

Lemma pow2_pos h : 0 < 2 ^ h.
Proof. apply N.neq_0_lt_0, N.pow_nonzero. lia. Qed.

Lemma mod_pow2_lt c h : c mod 2 ^ h < 2 ^ h.
Proof. apply N.mod_lt, N.pow_nonzero. lia. Qed.

Lemma mod_pow2_le x w : x mod 2 ^ w <= 2 ^ w - 1.
Proof. lia. Qed.

Lemma land_pow2_m1 c h : N.land c (2 ^ h - 1) = c mod 2 ^ h.
Proof.
  rewrite <- N.land_ones. rewrite N.ones_equiv, N.pred_sub. reflexivity.
Qed.

Lemma n2b_mod x : n2b (x mod 256) = n2b x.
Proof. unfold n2b. now rewrite N.mod_mod by lia. Qed.

Lemma land_255 x : N.land x 255 = x mod 256.
Proof. exact (land_pow2_m1 x 8). Qed.

Lemma be2_spec c : be 2 c = [n2b (N.land (N.shiftr c 8) 255); n2b (N.land c 255)].
Proof. rewrite !land_255, !n2b_mod, N.shiftr_div_pow2. reflexivity. Qed.

Local Close Scope N_scope.

Definition take {A} (n : nat) (l : list A) := firstn n l.
Definition drop {A} (n : nat) (l : list A) := skipn n l.

Lemma firstn_app_exact {A} (a b : list A) k : length a = k -> firstn k (a ++ b) = a.
Proof. intros <-. now rewrite firstn_app, Nat.sub_diag, firstn_all, app_nil_r. Qed.

Lemma skipn_app_exact {A} (a b : list A) k : length a = k -> skipn k (a ++ b) = b.
Proof. intros <-. now rewrite skipn_app, Nat.sub_diag, skipn_all. Qed.

Lemma split_len {A} (l : list A) k : (k <= length l)%nat -> exists a b, l = a ++ b /\ length a = k.
Proof.
  exists (firstn k l), (skipn k l). split; [symmetry; apply firstn_skipn|].
  now apply firstn_length_le.
Qed.

Lemma skipn_skipn {A} (l : list A) a b : skipn b (skipn a l) = skipn (a + b) l.
Proof. revert l; induction a as [|a IH]; intros [|x l]; cbn [skipn Nat.add]; rewrite ?skipn_nil; auto. Qed.

Lemma combine_fst_snd {A B} (a : list A) (b : list B) :
  length a = length b -> map fst (combine a b) = a /\ map snd (combine a b) = b.
Proof.
  revert b. induction a as [|x a IH]; intros [|y b] L; try discriminate.
  - split; reflexivity.
  - injection L as L. destruct (IH b L) as [E1 E2]. cbn [combine map fst snd]. now rewrite E1, E2.
Qed.

Lemma combine_app_same {A B} (a1 a2 : list A) (b1 b2 : list B) :
  length a1 = length b1 -> combine (a1 ++ a2) (b1 ++ b2) = combine a1 b1 ++ combine a2 b2.
Proof.
  revert b1; induction a1 as [|x a1 IH]; intros [|y b1] E; cbn in E; try discriminate; [reflexivity|].
  cbn [app combine]. f_equal. apply IH. lia.
Qed.

Lemma combine_rev_eq {A B} (a : list A) (b : list B) :
  length a = length b -> rev (combine a b) = combine (rev a) (rev b).
Proof.
  revert b; induction a as [|x a IH]; intros [|y b] E; cbn in E; try discriminate; [reflexivity|].
  cbn [combine rev]. rewrite IH by lia.
  rewrite combine_app_same by (rewrite !rev_length; lia). reflexivity.
Qed.

Lemma combine_map_map {A B C} (g : A -> B) (f : A -> C) (l : list A) :
  combine (map g l) (map f l) = map (fun a => (g a, f a)) l.
Proof. induction l as [|x l IH]; cbn; [reflexivity|now rewrite IH]. Qed.

Lemma Forall2_app_split {A B} (R : A -> B -> Prop) a1 a2 b1 b2 :
  length a1 = length b1 -> Forall2 R (a1 ++ a2) (b1 ++ b2) -> Forall2 R a1 b1 /\ Forall2 R a2 b2.
Proof.
  revert b1; induction a1 as [|x a1 IH]; intros [|y b1] E F; cbn in E; try discriminate.
  - split; [constructor|exact F].
  - inversion F as [|? ? ? ? Hxy F']; subst. destruct (IH b1 ltac:(lia) F'). split; [constructor|]; assumption.
Qed.

Lemma Forall2_rev {A B} (P : A -> B -> Prop) a b : Forall2 P a b -> Forall2 P (rev a) (rev b).
Proof.
  induction 1 as [|x y a b Hxy _ IH]; [constructor|]. cbn [rev].
  apply Forall2_app; [assumption|]. constructor; [assumption|constructor].
Qed.

Lemma combine_map_l {A B C} (f : A -> B) (a : list A) (b : list C) :
  combine (map f a) b = map (fun p => (f (fst p), snd p)) (combine a b).
Proof.
  revert b; induction a as [|x a IH]; intros [|y b]; cbn; try reflexivity. now rewrite IH.
Qed.

Lemma map_nth_seq {A} (l : list A) d : map (fun i => nth i l d) (seq 0 (length l)) = l.
Proof.
  apply (nth_ext _ _ d d).
  - now rewrite map_length, seq_length.
  - intros i Hi. rewrite map_length, seq_length in Hi.
    rewrite (nth_indep _ d (nth 0 l d)) by (now rewrite map_length, seq_length).
    rewrite (map_nth (fun i => nth i l d) (seq 0 (length l)) 0%nat i).
    now rewrite seq_nth.
Qed.

Lemma last_cons {A} (l : list A) a d : last (a :: l) d = last l a.
Proof.
  revert a d; induction l as [|b l IH]; intros a d; [reflexivity|].
  change (last (a :: b :: l) d) with (last (b :: l) d). now rewrite !IH.
Qed.

Lemma firstn_repeat {A} (x : A) k m : firstn k (repeat x m) = repeat x (Nat.min k m).
Proof.
  revert m; induction k as [|k IH]; intros [|m]; cbn; try reflexivity. now rewrite IH.
Qed.

Lemma skipn_repeat {A} (x : A) k m : skipn k (repeat x m) = repeat x (m - k).
Proof.
  revert m; induction k as [|k IH]; intros [|m]; try reflexivity. apply IH.
Qed.

(* checked cursor read: the first [k] bytes and the rest, or [None]. *)
Definition read (k : nat) (l : bytes) : option (bytes * bytes) :=
  if Nat.leb k (length l) then Some (firstn k l, skipn k l) else None.

Lemma read_app k a b : length a = k -> read k (a ++ b) = Some (a, b).
Proof.
  intros <-. unfold read. rewrite app_length.
  replace (Nat.leb (length a) (length a + length b)) with true
    by (symmetry; apply Nat.leb_le; lia).
  now rewrite firstn_app_exact, skipn_app_exact.
Qed.

Lemma read_ok k (l : bytes) :
  (k <= length l)%nat -> exists a b, read k l = Some (a, b) /\ length b = (length l - k)%nat.
Proof.
  intros Hk. destruct (split_len l k Hk) as (a & b & -> & L). exists a, b.
  rewrite read_app, app_length by assumption. split; [reflexivity|lia].
Qed.

Lemma read_Some k l a b : read k l = Some (a, b) -> l = a ++ b /\ length a = k.
Proof.
  unfold read. destruct (Nat.leb k (length l)) eqn:E; [|discriminate].
  intros [= <- <-]. apply Nat.leb_le in E. split.
  - symmetry; apply firstn_skipn.
  - apply firstn_length_le; assumption.
Qed.

Lemma read_None k l : read k l = None <-> length l < k.
Proof.
  unfold read. destruct (Nat.leb k (length l)) eqn:E.
  - apply Nat.leb_le in E. split; [discriminate|lia].
  - apply Nat.leb_gt in E. split; [intros _; exact E|reflexivity].
Qed.

(* [chunks n k l]: the first k chunks of n bytes each (used on exactly-sized input). *)
Fixpoint chunks (n k : nat) (l : bytes) : list bytes :=
  match k with
  | O => []
  | S k' => firstn n l :: chunks n k' (skipn n l)
  end.

Lemma chunks_length n k l : length (chunks n k l) = k.
Proof. revert l; induction k as [|k IH]; intros l; cbn; [reflexivity|now rewrite IH]. Qed.

Lemma chunks_concat n k (xs : list bytes) rest :
  length xs = k -> Forall (fun x => length x = n) xs ->
  chunks n k (concat xs ++ rest) = xs.
Proof.
  revert xs; induction k as [|k IH]; intros [|x xs] Hl Hf; cbn in Hl; try discriminate;
    [reflexivity|].
  inversion Hf as [|? ? Hx Hxs]; subst. cbn [concat chunks].
  rewrite <- app_assoc.
  rewrite firstn_app, Nat.sub_diag, firstn_all. rewrite app_nil_r.
  rewrite skipn_app, Nat.sub_diag, skipn_all. cbn [skipn app].
  f_equal. apply IH; [lia|assumption].
Qed.

Lemma chunks_sizes n k (l : bytes) :
  (n * k <= length l)%nat -> Forall (fun x => length x = n) (chunks n k l).
Proof.
  revert l; induction k as [|k IH]; constructor.
  - apply firstn_length_le. lia.
  - apply IH. rewrite skipn_length. lia.
Qed.

Lemma concat_chunks n k (l : bytes) : length l = (n * k)%nat -> concat (chunks n k l) = l.
Proof.
  revert l; induction k as [|k IH]; intros l Hl; cbn [chunks concat].
  - destruct l; [reflexivity|cbn in Hl; lia].
  - rewrite IH by (rewrite skipn_length; lia). apply firstn_skipn.
Qed.

Lemma concat_length_const n (xs : list bytes) :
  Forall (fun x => length x = n) xs -> length (concat xs) = length xs * n.
Proof.
  induction 1 as [|x xs Hx _ IH]; cbn; [reflexivity|].
  rewrite app_length, Hx. lia.
Qed.

(* hex rendering, for the correspondence cases *)

Definition hexval (a : Ascii.ascii) : N :=
  let n := Ascii.N_of_ascii a in
  if (48 <=? n)%N && (n <=? 57)%N then n - 48
  else if (97 <=? n)%N && (n <=? 102)%N then n - 87
  else if (65 <=? n)%N && (n <=? 70)%N then n - 55
  else 0.

Fixpoint unhex (s : String.string) : bytes :=
  match s with
  | String.String a (String.String b s') => n2b (hexval a * 16 + hexval b) :: unhex s'
  | _ => []
  end.

Arguments unhex s%string.

Definition hexdigit (n : N) : Ascii.ascii :=
  Ascii.ascii_of_N (if (n <? 10)%N then n + 48 else n + 87).

Fixpoint hex (l : bytes) : String.string :=
  match l with
  | [] => String.EmptyString
  | b :: l' => String.String (hexdigit (b2n b / 16)) (String.String (hexdigit (b2n b mod 16)) (hex l'))
  end.

(* xor of two bytes (flips a byte of a test vector, Spec/RfcKat.v); the all-zero test of the model *)
Definition xor_byte (a b : byte) : byte := n2b (N.lxor (b2n a) (b2n b)).

Definition is_zero_byte (b : byte) : bool := Byte.eqb b x00.
Definition all_zero (l : bytes) : bool := forallb is_zero_byte l.

Lemma all_zero_repeat m : all_zero (repeat x00 m) = true.
Proof. induction m as [|m IH]; [reflexivity|exact IH]. Qed.

