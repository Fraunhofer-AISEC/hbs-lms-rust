(* The cursor parsers of Model/Codec.v, characterised: a parser succeeds exactly on the
   serialisations of exactly-sized structures followed by the unread rest. *)
From HbsLms Require Import Base.Bytes Model.Consts Model.Lms Model.Codec.

Local Open Scope N_scope.

Lemma be4_dec x : x < 4294967296 -> be_dec (be 4 x) = x.
Proof. intros Hx. rewrite be_dec_be. apply N.mod_small. exact Hx. Qed.

Lemma be4_of_dec (b : bytes) : length b = 4%nat -> be 4 (be_dec b) = b /\ be_dec b < 4294967296.
Proof.
  intros L. split.
  - rewrite <- L. apply be_be_dec.
  - pose proof (be_dec_lt b) as Hlt. rewrite L in Hlt. exact Hlt.
Qed.

Lemma rd_Ok k l a b : rd k l = Ok (a, b) <-> l = a ++ b /\ length a = k.
Proof.
  unfold rd. split.
  - destruct (read k l) as [[x y]|] eqn:E; [|discriminate]. intros [= <- <-]. now apply read_Some.
  - intros [-> L]. now rewrite read_app.
Qed.

Lemma rd_app k a b : length a = k -> rd k (a ++ b) = Ok (a, b).
Proof. intros L. now apply rd_Ok. Qed.

Lemma rd_extend k l a b e : rd k l = Ok (a, b) -> rd k (l ++ e) = Ok (a, b ++ e).
Proof. intros [-> L]%rd_Ok. rewrite <- app_assoc. now apply rd_app. Qed.

(* one step of a cursor parser: a checked read followed by the rest (for a table lookup the same
   is [bind_of_option_Ok] in Base/Bytes.v) *)
Lemma bind_rd_Ok {B} k l (g : bytes -> bytes -> res B) x :
  (do (a, b) <- rd k l; g a b) = Ok x <-> exists a b, l = a ++ b /\ length a = k /\ g a b = Ok x.
Proof.
  rewrite bind_Ok. split.
  - intros ([a b] & E%rd_Ok & G). exists a, b. tauto.
  - intros (a & b & E & L & G). exists (a, b). split; [now apply rd_Ok|exact G].
Qed.

Lemma bind_rd_app {B} k a b (g : bytes -> bytes -> res B) :
  length a = k -> (do (x, y) <- rd k (a ++ b); g x y) = g a b.
Proof. intros L. now rewrite rd_app. Qed.

Lemma rd_total k l : rd k l <> Panic.
Proof. apply of_option_total. Qed.
#[export] Hint Resolve rd_total : total.

Section Codec.
  Variable K : consts.
  Variable n : nat.

  (* a row is listed under its own type code, and the code fits the four bytes the serialiser
     gives it; for a height up to 32 every leaf index fits four bytes as well *)
  Definition wf_ots (prm : otsp) : Prop :=
    ots_of_type K n (o_type prm) = Some prm /\ o_type prm < 4294967296.
  Definition wf_lms (lp : lmsp) : Prop :=
    lms_of_type K (l_type lp) = Some lp /\ l_type lp < 4294967296 /\ (l_h lp <= 32)%nat.

  (* what InMemoryLmsSignature::new guarantees about the fields it hands on *)
  Definition sig_shape (s : lms_sig) : Prop :=
    s_q s < 2 ^ N.of_nat (l_h (s_lms s))
    /\ length (s_C s) = n
    /\ length (s_y s) = o_p (s_ots s) /\ Forall (fun y => length y = n) (s_y s)
    /\ length (s_path s) = l_h (s_lms s) /\ Forall (fun y => length y = n) (s_path s).

  (* [qb], [tb], [lb]: the leaf index and the two type codes as they stand in the input *)
  Lemma parse_lms_sig_Ok data s rest :
    parse_lms_sig K n data = Ok (s, rest) <->
    exists qb tb lb,
      length qb = 4%nat /\ length tb = 4%nat /\ length lb = 4%nat
      /\ s_q s = be_dec qb
      /\ ots_of_type K n (be_dec tb) = Some (s_ots s) /\ lms_of_type K (be_dec lb) = Some (s_lms s)
      /\ sig_shape s
      /\ data = qb ++ (tb ++ s_C s ++ concat (s_y s)) ++ lb ++ concat (s_path s) ++ rest.
  Proof.
    unfold parse_lms_sig, sig_shape. split.
    - intros E.
      apply bind_rd_Ok in E as (qb & r1 & -> & L1 & E).
      apply bind_rd_Ok in E as (tb & r1' & E2 & L2 & E).
      apply bind_of_option_Ok in E as (prm & EO & E).
      apply bind_rd_Ok in E as (otsb & r2 & -> & L3 & E).
      apply bind_rd_Ok in E as (tb' & o1 & -> & L4 & E).
      apply bind_of_option_Ok in E as (prm' & EO' & E).
      apply bind_rd_Ok in E as (C & o2 & -> & L5 & E).
      apply bind_rd_Ok in E as (yb & o3 & -> & L6 & E).
      apply bind_rd_Ok in E as (lb & r3 & -> & L7 & E).
      apply bind_of_option_Ok in E as (lp & EL & E).
      apply bind_rd_Ok in E as (pb & r4 & -> & L8 & E).
      destruct (N.leb_spec (2 ^ N.of_nat (l_h lp)) (be_dec qb)); [discriminate|]. injection E as <- <-.
      (* the type code is read twice, once ahead of the LM-OTS slice and once inside it *)
      rewrite <- !app_assoc in E2. apply (f_equal (firstn 4)) in E2.
      rewrite !firstn_app_exact in E2 by assumption. subst tb'. rewrite EO in EO'. injection EO' as <-.
      assert (o3 = []) as -> by (rewrite !app_length in L3; destruct o3; [reflexivity|cbn [length] in L3; lia]).
      exists qb, tb, lb. cbn [s_q s_ots s_C s_y s_lms s_path].
      rewrite !chunks_length, !concat_chunks, app_nil_r by assumption.
      repeat split; trivial; apply chunks_sizes; lia.
    - (* each read must find its field followed by the rest: the last field of the LM-OTS slice is
         given a [++ []] *)
      intros (qb & tb & lb & L1 & L2 & L7 & Eq & EO & EL & (Hq & LC & Ly & Fy & Lp & Fp) & ->).
      assert (Lys : length (concat (s_y s)) = (n * o_p (s_ots s))%nat)
        by (rewrite (concat_length_const n) by assumption; lia).
      assert (Lps : length (concat (s_path s)) = (n * l_h (s_lms s))%nat)
        by (rewrite (concat_length_const n) by assumption; lia).
      rewrite bind_rd_app by assumption.
      rewrite <- app_assoc at 1. rewrite bind_rd_app by assumption. rewrite EO. cbn [of_option bind].
      rewrite bind_rd_app by (rewrite !app_length; lia).
      rewrite bind_rd_app by assumption. rewrite EO. cbn [of_option bind].
      rewrite bind_rd_app by assumption.
      rewrite <- (app_nil_r (concat (s_y s))) at 1. rewrite bind_rd_app by assumption.
      rewrite bind_rd_app by assumption. rewrite EL. cbn [of_option bind].
      rewrite bind_rd_app by assumption. rewrite <- Eq.
      destruct (N.leb_spec (2 ^ N.of_nat (l_h (s_lms s))) (s_q s)); [lia|].
      rewrite <- (app_nil_r (concat (s_y s))), <- (app_nil_r (concat (s_path s))), !chunks_concat by assumption.
      now destruct s.
  Qed.

  Lemma parse_lms_pk_Ok data key rest :
    parse_lms_pk K n data = Ok (key, rest) <->
    exists lb tb,
      length lb = 4%nat /\ length tb = 4%nat
      /\ lms_of_type K (be_dec lb) = Some (p_lms key) /\ ots_of_type K n (be_dec tb) = Some (p_ots key)
      /\ length (p_I key) = c_ilen K /\ length (p_key key) = n
      /\ p_raw key = lb ++ tb ++ p_I key ++ p_key key
      /\ data = p_raw key ++ rest.
  Proof.
    (* [injection] below would otherwise evaluate [firstn] on the numeral *)
    unfold parse_lms_pk. remember (4 + 4 + c_ilen K + n)%nat as tot.
    assert (R : forall lb tb tid k r : bytes,
               length lb = 4%nat -> length tb = 4%nat -> length tid = c_ilen K -> length k = n ->
               firstn tot (lb ++ tb ++ tid ++ k ++ r) = lb ++ tb ++ tid ++ k).
    { intros. rewrite !app_assoc. rewrite firstn_app_exact by (rewrite !app_length; lia).
      now rewrite <- !app_assoc. }
    split.
    - intros E.
      apply bind_rd_Ok in E as (lb & r1 & -> & L1 & E).
      apply bind_of_option_Ok in E as (lp & EL & E).
      apply bind_rd_Ok in E as (tb & r2 & -> & L2 & E).
      apply bind_of_option_Ok in E as (prm & EO & E).
      apply bind_rd_Ok in E as (tid & r3 & -> & L3 & E).
      apply bind_rd_Ok in E as (k & r4 & -> & L4 & E).
      injection E as <- <-. exists lb, tb. cbn [p_lms p_ots p_I p_key p_raw].
      rewrite R by assumption. repeat split; trivial. now rewrite <- !app_assoc.
    - intros (lb & tb & L1 & L2 & EL & EO & LI & LK & ER & ->). rewrite ER, <- !app_assoc.
      rewrite bind_rd_app by assumption. rewrite EL. cbn [of_option bind].
      rewrite bind_rd_app by assumption. rewrite EO. cbn [of_option bind].
      rewrite !bind_rd_app by assumption.
      rewrite R, <- ER by assumption. now destruct key.
  Qed.

  Lemma parse_lms_sig_roundtrip prm lp q C ys path rest :
    wf_ots prm -> wf_lms lp ->
    q < 2 ^ N.of_nat (l_h lp) ->
    length C = n ->
    length ys = o_p prm -> Forall (fun y => length y = n) ys ->
    length path = l_h lp -> Forall (fun y => length y = n) path ->
    parse_lms_sig K n
      (be 4 q ++ (be 4 (o_type prm) ++ C ++ concat ys) ++ be 4 (l_type lp) ++ concat path ++ rest)
    = Ok ({| s_q := q; s_ots := prm; s_C := C; s_y := ys; s_lms := lp; s_path := path |}, rest).
  Proof.
    intros [Ho Hot] [Hl [Hlt Hh]] Hq HC Hys Fys Hp Fp.
    assert (Hq32 : q < 4294967296).
    { eapply N.lt_le_trans; [exact Hq|]. change 4294967296 with (2 ^ 32).
      apply N.pow_le_mono_r; lia. }
    apply parse_lms_sig_Ok. exists (be 4 q), (be 4 (o_type prm)), (be 4 (l_type lp)).
    rewrite !be4_dec by assumption.
    cbn [s_q s_ots s_C s_y s_lms s_path]. repeat split; assumption.
  Qed.

  Lemma parse_lms_pk_roundtrip prm lp tid root rest :
    wf_ots prm -> wf_lms lp -> length tid = c_ilen K -> length root = n ->
    parse_lms_pk K n (lms_pk_bytes prm lp tid root ++ rest)
    = Ok ({| p_lms := lp; p_ots := prm; p_I := tid; p_key := root;
             p_raw := lms_pk_bytes prm lp tid root |}, rest).
  Proof.
    intros [Ho Hot] [Hl [Hlt Hh]] HI Hr.
    apply parse_lms_pk_Ok. exists (be 4 (l_type lp)), (be 4 (o_type prm)).
    rewrite !be4_dec by assumption. cbn [p_lms p_ots p_I p_key p_raw].
    repeat split; assumption.
  Qed.

  Lemma parse_lms_sig_extend data s rest e :
    parse_lms_sig K n data = Ok (s, rest) -> parse_lms_sig K n (data ++ e) = Ok (s, rest ++ e).
  Proof.
    intros E. apply parse_lms_sig_Ok in E as (qb & tb & lb & E). apply parse_lms_sig_Ok.
    exists qb, tb, lb. destruct E as (? & ? & ? & ? & ? & ? & ? & ->).
    repeat (split; [assumption|]). now rewrite <- !app_assoc.
  Qed.

  Lemma parse_lms_pk_extend data p rest e :
    parse_lms_pk K n data = Ok (p, rest) -> parse_lms_pk K n (data ++ e) = Ok (p, rest ++ e).
  Proof.
    intros E. apply parse_lms_pk_Ok in E as (lb & tb & E). apply parse_lms_pk_Ok.
    exists lb, tb. destruct E as (? & ? & ? & ? & ? & ? & ? & ->).
    repeat (split; [assumption|]). now rewrite <- app_assoc.
  Qed.

  Lemma parse_spks_S k data :
    parse_spks K n (S k) data =
    (do (s, r1) <- parse_lms_sig K n data;
     do (p, r2) <- parse_lms_pk K n r1;
     do (rest, r3) <- parse_spks K n k r2;
     Ok ((s, p) :: rest, r3)).
  Proof. reflexivity. Qed.

  Lemma parse_spks_extend k data l rest e :
    parse_spks K n k data = Ok (l, rest) -> parse_spks K n k (data ++ e) = Ok (l, rest ++ e).
  Proof.
    revert data l rest; induction k as [|k IH]; intros data l rest; cbn [parse_spks].
    - now intros [= <- <-].
    - intros E.
      apply bind_Ok in E as ([s r1] & E1 & E). rewrite (parse_lms_sig_extend _ _ _ e E1). cbn [bind].
      apply bind_Ok in E as ([p r2] & E2 & E). rewrite (parse_lms_pk_extend _ _ _ e E2). cbn [bind].
      apply bind_Ok in E as ([rs r3] & E3 & E). rewrite (IH _ _ _ E3). cbn [bind].
      now injection E as <- <-.
  Qed.

  Lemma parse_spks_length k data l rest : parse_spks K n k data = Ok (l, rest) -> length l = k.
  Proof.
    revert data l rest; induction k as [|k IH]; intros data l rest; cbn [parse_spks].
    - now intros [= <- _].
    - intros E. apply bind_Ok in E as ([s r1] & _ & E). apply bind_Ok in E as ([p r2] & _ & E).
      apply bind_Ok in E as ([rs r3] & E3 & E). injection E as <- _. cbn [length]. f_equal. exact (IH _ _ _ E3).
  Qed.

  (* InMemoryHssSignature::new and InMemoryHssPublicKey::new insist that nothing is left over *)
  Lemma parse_hss_sig_Ok data s :
    parse_hss_sig K n data = Ok s <->
    exists nb r1 r2,
      data = nb ++ r1 /\ length nb = 4%nat /\ h_nspk s = be_dec nb
      /\ h_nspk s < N.of_nat (c_max_levels K)
      /\ parse_spks K n (N.to_nat (h_nspk s)) r1 = Ok (h_spks s, r2)
      /\ parse_lms_sig K n r2 = Ok (h_sig s, []).
  Proof.
    unfold parse_hss_sig. split.
    - intros E. apply bind_rd_Ok in E as (nb & r1 & -> & L1 & E).
      destruct (N.leb_spec (N.of_nat (c_max_levels K)) (be_dec nb)); [discriminate|].
      apply bind_Ok in E as ([spks r2] & E2 & E). apply bind_Ok in E as ([sg r3] & E3 & E).
      destruct r3; [|discriminate]. injection E as <-. exists nb, r1, r2. auto 7.
    - intros (nb & r1 & r2 & -> & L1 & Enb & Hlt & E2 & E3). rewrite bind_rd_app by assumption.
      rewrite <- Enb. destruct (N.leb_spec (N.of_nat (c_max_levels K)) (h_nspk s)); [lia|].
      rewrite E2. cbn [bind]. rewrite E3. cbn [bind]. now destruct s.
  Qed.

  Lemma parse_hss_pk_Ok data L key :
    parse_hss_pk K n data = Ok (L, key) <->
    exists lb r1, data = lb ++ r1 /\ length lb = 4%nat /\ L = be_dec lb /\ parse_lms_pk K n r1 = Ok (key, []).
  Proof.
    unfold parse_hss_pk. split.
    - intros E. apply bind_rd_Ok in E as (lb & r1 & -> & L1 & E).
      apply bind_Ok in E as ([p r2] & E2 & E). destruct r2; [|discriminate]. injection E as <- <-. now exists lb, r1.
    - intros (lb & r1 & -> & L1 & -> & E2). rewrite bind_rd_app by assumption. now rewrite E2.
  Qed.
End Codec.
