(* Completeness (C01), for any hash function with n-byte output and any constants: what the
   LM-OTS and LMS signers produce, the verifier's recomputation accepts ([lmots_complete],
   [lms_complete]); every HSS signature the model's signer produces is accepted by the model's
   verifier under the public key of the same seed, for any number of levels, per-level
   parameters, counter and message ([hss_complete]).
   On the way, used well beyond C01: the signer taken apart ([expand_cons], [expand_ind],
   [hss_signature_Ok], [hss_public_key_Ok]) and the lengths of everything it writes. *)
From HbsLms Require Import Base.Bytes Model.Consts Model.Winternitz Model.Lmots Model.Lms Model.Derive
     Model.Counter Model.KeyBlob Model.Codec Model.Hss.
From HbsLms Require Import Proofs.CounterProofs Proofs.WinternitzProofs Proofs.CodecProofs Proofs.VerifyProofs.

Local Open Scope N_scope.

Section Complete.
  Variable K : consts.
  Variable n : nat.
  Variable H : bytes -> bytes.

  Lemma chain_app I q i from s1 s2 x :
    chain K n H I q i (from + N.of_nat s1) s2 (chain K n H I q i from s1 x)
    = chain K n H I q i from (s1 + s2) x.
  Proof.
    revert from x; induction s1 as [|s1 IH]; intros from x.
    - now rewrite N.add_0_r.
    - cbn [chain Nat.add]. rewrite <- IH. f_equal. lia.
  Qed.

  Lemma digits_bound prm Q : Forall (fun d => d <= chain_len prm) (digits n prm Q).
  Proof.
    unfold digits, chain_len. apply Forall_forall. intros d Hd. apply in_map_iff in Hd.
    destruct Hd as [i [<- _]]. rewrite <- coef_mask_spec. apply coef_bound.
  Qed.

  Lemma digits_length prm Q : length (digits n prm Q) = o_p prm.
  Proof. unfold digits. now rewrite map_length, nrange_length. Qed.

  Lemma ots_priv_length I q seed prm : length (ots_priv H I q seed prm) = o_p prm.
  Proof. unfold ots_priv. now rewrite map_length, nrange_length. Qed.

  (* chain i, walked from its start to position a_i (the signer) and on from a_i for the remaining
     L - a_i steps (the verifier), has been walked to its end L *)
  Lemma chains_meet I q L (idx a : list N) (xs : list bytes) :
    length idx = length a -> length a = length xs -> Forall (fun d => d <= L) a ->
    map (fun t : N * N * bytes =>
           chain K n H I q (fst (fst t)) (snd (fst t)) (N.to_nat (L - snd (fst t))) (snd t))
        (combine (combine idx a)
                 (map (fun t : N * N * bytes =>
                         chain K n H I q (fst (fst t)) 0 (N.to_nat (snd (fst t))) (snd t))
                      (combine (combine idx a) xs)))
    = map (fun ix : N * bytes => chain K n H I q (fst ix) 0 (N.to_nat L) (snd ix)) (combine idx xs).
  Proof.
    revert a xs; induction idx as [|i idx IH]; intros [|d a] [|x xs] E1 E2 F;
      cbn in E1, E2; try discriminate; [reflexivity|].
    inversion F as [|? ? Hd Fa]; subst. cbn [combine map fst snd]. f_equal.
    - pose proof (chain_app I q i 0 (N.to_nat d) (N.to_nat (L - d)) x) as C.
      rewrite N2Nat.id, N.add_0_l in C. rewrite C. f_equal. lia.
    - apply IH; [lia|lia|assumption].
  Qed.

  (* Algorithm 4b recomputes the LM-OTS public key from a signature made by Algorithm 3 *)
  Theorem lmots_complete I q seed prm C msg :
    ots_candidate K n H I q prm C (ots_sign_ys K n H I q seed prm C msg) msg
    = ots_pub K n H I q seed prm.
  Proof.
    unfold ots_candidate, ots_sign_ys.
    rewrite chains_meet; [reflexivity| | |apply digits_bound].
    - now rewrite nrange_length, digits_length.
    - now rewrite digits_length, ots_priv_length.
  Qed.

  Lemma lxor_1 x : N.lxor x 1 = if N.odd x then x - 1 else x + 1.
  Proof. destruct x as [|[p|p|]]; reflexivity. Qed.

  (* a node and its sibling are the two children of their parent, in the order the parity gives *)
  Lemma node_and_sibling a :
    (if N.odd a then (N.lxor a 1, a) else (a, N.lxor a 1)) = (2 * (a / 2), 2 * (a / 2) + 1).
  Proof.
    rewrite lxor_1. pose proof (N.div_mod a 2 ltac:(lia)) as E. rewrite <- N.bit0_mod, N.bit0_odd in E.
    destruct (N.odd a); cbn [N.b2n] in E; f_equal; lia.
  Qed.

  Section Tree.
    Variable h : nat.
    Variables (I seed : bytes) (prm : otsp).
    Variable leafnode : N.   (* 2^h + q *)

    Local Notation T := (tree K n H h I seed prm).
    Local Notation anc i := (leafnode / 2 ^ N.of_nat i).

    Lemma anc_succ i : anc (S i) = anc i / 2.
    Proof.
      clear. rewrite Nat2N.inj_succ, N.pow_succ_r', (N.mul_comm 2), <- N.div_div;
        try reflexivity; lia.
    Qed.

    Lemma climb_tree k i :
      climb K H I (anc i) (T i (anc i))
            (map (fun j => T j (N.lxor (anc j) 1)) (seq i k))
      = T (i + k) (anc (i + k)).
    Proof.
      revert i; induction k as [|k IH]; intros i.
      - cbn [seq map climb]. now rewrite Nat.add_0_r.
      - cbn [seq map climb].
        replace (i + S k)%nat with (S i + k)%nat by lia. rewrite <- IH, anc_succ.
        cbn [tree]. pose proof (node_and_sibling (anc i)) as E.
        destruct (N.odd (anc i)); injection E as E1 E2; now rewrite <- E2, <- E1.
    Qed.
  End Tree.

  (* Algorithm 6a applied to a signature made as in section 5.4.1 recomputes the root T[1] *)
  Theorem lms_complete I seed prm lp q C msg :
    q < 2 ^ N.of_nat (l_h lp) ->
    lms_candidate K n H I prm lp q C (ots_sign_ys K n H I q seed prm C msg)
                  (auth_path K n H I seed prm lp q) msg
    = lms_root K n H I seed prm lp.
  Proof.
    intros Hq. unfold lms_candidate.
    rewrite lmots_complete.
    set (h := l_h lp). set (node := 2 ^ N.of_nat h + q).
    pose proof (climb_tree h I seed prm node h 0) as CT.
    rewrite N.div_1_r in CT. cbn [tree Nat.add] in CT.
    (* the leaf hashes the LM-OTS public key of q; the ancestor h levels up is the root *)
    replace (node - 2 ^ N.of_nat h) with q in CT by lia.
    replace (node / 2 ^ N.of_nat h) with 1 in CT; [exact CT|].
    unfold node, h. apply N.div_unique with q; lia.
  Qed.
End Complete.

Lemma combine_leaf_digits (ps : list param) c :
  map fst (combine ps (leaf_digits (heights_of ps) c)) = ps
  /\ map snd (combine ps (leaf_digits (heights_of ps) c)) = leaf_digits (heights_of ps) c.
Proof. apply combine_fst_snd. unfold heights_of. now rewrite leaf_digits_length, map_length. Qed.

Section Walk.
  Variable K : consts.
  Variable n : nat.
  Variable H : bytes -> bytes.

  Lemma expand_cons seed I p q p' q' rest :
    expand K n H seed I p q ((p', q') :: rest) =
    (let (cseed, cI) := child_seed_I K H seed I q in
     let (spks, bottom) := expand K n H cseed cI p' q' rest in
     ((lms_sign_bytes K n H I seed (fst p) (snd p) q (randomizer K H cseed cI q)
                      (tree_pk K n H p' cseed cI) ++ tree_pk K n H p' cseed cI) :: spks, bottom)).
  Proof. reflexivity. Qed.

  (* Induction along [expand].  [Inv] is what is known of the (seed, I) of every tree on the way
     down; [P] relates the arguments of a call to its result. *)
  Lemma expand_ind (Inv : bytes -> bytes -> Prop)
        (P : bytes -> bytes -> param -> N -> list (param * N) -> list bytes -> bytes * bytes * param * N -> Prop) :
    (forall seed I q, Inv seed I -> Inv (fst (child_seed_I K H seed I q)) (snd (child_seed_I K H seed I q))) ->
    (forall seed I p q, Inv seed I -> P seed I p q [] [] (seed, I, p, q)) ->
    (forall seed I p q p' q' rest cs cI spks bottom,
        Inv seed I -> Inv cs cI -> child_seed_I K H seed I q = (cs, cI) ->
        P cs cI p' q' rest spks bottom ->
        P seed I p q ((p', q') :: rest)
          ((lms_sign_bytes K n H I seed (fst p) (snd p) q (randomizer K H cs cI q) (tree_pk K n H p' cs cI)
            ++ tree_pk K n H p' cs cI) :: spks) bottom) ->
    forall below seed I p q spks bottom,
      Inv seed I -> expand K n H seed I p q below = (spks, bottom) -> P seed I p q below spks bottom.
  Proof.
    intros Child Nil Cons. induction below as [|[p' q'] rest IH]; intros seed I p q spks bottom HI E.
    - injection E as <- <-. now apply Nil.
    - rewrite expand_cons in E. pose proof (Child seed I q HI) as HcI.
      destruct (child_seed_I K H seed I q) as [cs cI] eqn:EC.
      destruct (expand K n H cs cI p' q' rest) as [spks' bottom'] eqn:EE. injection E as <- <-.
      now apply Cons; [| | |apply IH].
  Qed.

  Definition bottom_sig (b : bytes * bytes * param * N) (msg : bytes) : bytes :=
    let '(bseed, bI, bp, bq) := b in
    lms_sign_bytes K n H bI bseed (fst bp) (snd bp) bq (randomizer K H bseed bI bq) msg.

  (* a signature is released exactly for a non-empty parameter list: the level count, the signed
     public keys written on the way down from the root tree, the bottom tree's signature *)
  Lemma hss_signature_Ok ps seed c msg sig :
    hss_signature K n H ps seed c msg = Ok sig <->
    exists p0 q0 below,
      combine ps (leaf_digits (heights_of ps) c) = (p0, q0) :: below
      /\ let w := expand K n H (fst (root_seed_I K H seed)) (snd (root_seed_I K H seed)) p0 q0 below in
         sig = be 4 (N.of_nat (length below)) ++ concat (fst w) ++ bottom_sig (snd w) msg.
  Proof.
    unfold hss_signature. destruct (combine ps _) as [|[p0 q0] below].
    - split; [discriminate|]. intros (? & ? & ? & [=] & _).
    - destruct (root_seed_I K H seed) as [s0 I0]. cbn [fst snd].
      destruct (expand K n H s0 I0 p0 q0 below) as [spks [[[bseed bI] bp] bq]] eqn:EE. split.
      + intros [= <-]. exists p0, q0, below. rewrite EE. split; reflexivity.
      + intros (? & ? & ? & [= <- <- <-] & ->). rewrite EE. reflexivity.
  Qed.

  Lemma hss_public_key_Ok ps seed pk :
    hss_public_key K n H ps seed = Ok pk <->
    exists p0 ps', ps = p0 :: ps'
      /\ pk = be 4 (N.of_nat (length ps))
              ++ tree_pk K n H p0 (fst (root_seed_I K H seed)) (snd (root_seed_I K H seed)).
  Proof.
    unfold hss_public_key. destruct ps as [|p0 ps'].
    - split; [discriminate|]. intros (? & ? & [=] & _).
    - destruct (root_seed_I K H seed) as [s0 I0]. cbn [fst snd]. split.
      + intros [= <-]. exists p0, ps'. auto.
      + intros (? & ? & [= <- <-] & ->). reflexivity.
  Qed.
End Walk.

Section HssComplete.
  Variable K : consts.
  Variable n : nat.
  Variable H : bytes -> bytes.
  Hypothesis H_len : forall x, length (H x) = n.

  Definition wf_param (p : param) : Prop := wf_ots K n (fst p) /\ wf_lms K (snd p).

  Lemma chain_length I q i from s x : length x = n -> length (chain K n H I q i from s x) = n.
  Proof.
    revert from x; induction s as [|s IH]; intros from x Hx; [exact Hx|].
    apply IH. apply H_len.
  Qed.

  Lemma ots_sign_ys_length I q seed prm C msg :
    length (ots_sign_ys K n H I q seed prm C msg) = o_p prm.
  Proof.
    unfold ots_sign_ys. rewrite map_length, !combine_length, nrange_length, digits_length, ots_priv_length.
    now rewrite !Nat.min_id.
  Qed.

  Lemma ots_sign_ys_sizes I q seed prm C msg :
    Forall (fun y => length y = n) (ots_sign_ys K n H I q seed prm C msg).
  Proof.
    apply Forall_forall. intros y Hy. apply in_map_iff in Hy.
    destruct Hy as [[[i a] x] [<- Hin]]. cbn [fst snd]. apply chain_length.
    apply in_combine_r in Hin. unfold ots_priv in Hin. apply in_map_iff in Hin.
    destruct Hin as [j [<- _]]. apply H_len.
  Qed.

  Lemma tree_length h I seed prm d r : length (tree K n H h I seed prm d r) = n.
  Proof. destruct d; cbn [tree]; apply H_len. Qed.

  Lemma auth_path_length I seed prm lp q : length (auth_path K n H I seed prm lp q) = l_h lp.
  Proof. unfold auth_path. now rewrite map_length, seq_length. Qed.

  Lemma auth_path_sizes I seed prm lp q :
    Forall (fun y => length y = n) (auth_path K n H I seed prm lp q).
  Proof.
    apply Forall_forall. intros y Hy. apply in_map_iff in Hy.
    destruct Hy as [i [<- _]]. apply tree_length.
  Qed.

  (* the structures the parser recovers from what the signer serialised *)
  Definition sig_struct (I seed : bytes) (p : param) (q : N) (C msg : bytes) : lms_sig :=
    {| s_q := q; s_ots := fst p; s_C := C;
       s_y := ots_sign_ys K n H I q seed (fst p) C msg;
       s_lms := snd p; s_path := auth_path K n H I seed (fst p) (snd p) q |}.

  Definition pk_struct (p : param) (seed I : bytes) : lms_pk :=
    {| p_lms := snd p; p_ots := fst p; p_I := I;
       p_key := lms_root K n H I seed (fst p) (snd p);
       p_raw := tree_pk K n H p seed I |}.

  Lemma parse_signed I seed p q C msg rest :
    wf_param p -> q < 2 ^ N.of_nat (l_h (snd p)) -> length C = n ->
    parse_lms_sig K n (lms_sign_bytes K n H I seed (fst p) (snd p) q C msg ++ rest)
    = Ok (sig_struct I seed p q C msg, rest).
  Proof.
    intros [Wo Wl] Hq HC. unfold lms_sign_bytes, ots_sig_bytes.
    rewrite <- !app_assoc.
    pose proof (parse_lms_sig_roundtrip K n (fst p) (snd p) q C
                  (ots_sign_ys K n H I q seed (fst p) C msg)
                  (auth_path K n H I seed (fst p) (snd p) q) rest Wo Wl Hq HC
                  (ots_sign_ys_length _ _ _ _ _ _) (ots_sign_ys_sizes _ _ _ _ _ _)
                  (auth_path_length _ _ _ _ _) (auth_path_sizes _ _ _ _ _)) as R.
    rewrite <- !app_assoc in R. exact R.
  Qed.

  Lemma parse_tree_pk p seed I rest :
    wf_param p -> length I = c_ilen K ->
    parse_lms_pk K n (tree_pk K n H p seed I ++ rest) = Ok (pk_struct p seed I, rest).
  Proof.
    intros [Wo Wl] HI.
    apply parse_lms_pk_roundtrip; try assumption. apply tree_length.
  Qed.

  Lemma lms_verify_signed I seed p q C msg :
    q < 2 ^ N.of_nat (l_h (snd p)) ->
    lms_verify K n H (sig_struct I seed p q C msg) (pk_struct p seed I) msg = true.
  Proof.
    intros Hq. apply lms_verify_true. cbn [sig_struct pk_struct s_ots s_lms s_q s_C s_y s_path p_ots p_lms p_I p_key].
    auto using lms_complete.
  Qed.

  Lemma randomizer_length seed I q : length (randomizer K H seed I q) = n.
  Proof. apply H_len. Qed.

  Hypothesis ilen_le : (c_ilen K <= n)%nat.

  Lemma I_length x : length (firstn (c_ilen K) (H x)) = c_ilen K.
  Proof. rewrite firstn_length, H_len. now apply Nat.min_l. Qed.

  Lemma child_I_length seed I q : length (snd (child_seed_I K H seed I q)) = c_ilen K.
  Proof. apply I_length. Qed.

  Lemma root_I_length seed : length (snd (root_seed_I K H seed)) = c_ilen K.
  Proof. apply I_length. Qed.

  Definition level_ok (pq : param * N) : Prop :=
    wf_param (fst pq) /\ snd pq < 2 ^ N.of_nat (l_h (snd (fst pq))).

  Hypothesis levels_small : N.of_nat (c_max_levels K) < 4294967296.

  (* walking down the levels: the signed public keys parse back and verify as a chain *)
  Lemma expand_verifies below :
    forall seed I p q rest spks bseed bI bp bq,
      level_ok (p, q) -> Forall level_ok below -> length I = c_ilen K ->
      expand K n H seed I p q below = (spks, (bseed, bI, bp, bq)) ->
      exists structs,
        parse_spks K n (length below) (concat spks ++ rest) = Ok (structs, rest)
        /\ verify_chain K n H (pk_struct p seed I) structs = Some (pk_struct bp bseed bI)
        /\ level_ok (bp, bq) /\ length bI = c_ilen K
        /\ map (fun sp => s_q (fst sp)) structs ++ [bq] = q :: map snd below.
  Proof using H_len ilen_le levels_small.
    induction below as [|[p' q'] below IH]; intros seed I p q rest spks bseed bI bp bq Lk Fb HI E.
    - injection E as <- <- <- <- <-. exists []. auto.
    - rewrite expand_cons in E. pose proof (child_I_length seed I q) as HcI.
      destruct (child_seed_I K H seed I q) as [cseed cI]. cbn [snd] in HcI.
      destruct (expand K n H cseed cI p' q' below) as [spks' bottom] eqn:EE. apply pair_equal_spec in E as [<- ->].
      inversion Fb as [|? ? Lk' Fb']; subst.
      destruct (IH cseed cI p' q' rest spks' bseed bI bp bq Lk' Fb' HcI EE) as [structs [P [V [Lb [HbI HQ]]]]].
      exists ((sig_struct I seed p q (randomizer K H cseed cI q) (tree_pk K n H p' cseed cI),
               pk_struct p' cseed cI) :: structs).
      destruct Lk as [Wp Hq], Lk' as [Wp' Hq']. cbn [fst snd] in Wp, Hq, Wp', Hq'.
      split; [|split; [|split; [exact Lb|split; [exact HbI|]]]].
      + change (length ((p', q') :: below)) with (S (length below)).
        rewrite parse_spks_S, concat_cons, <- !app_assoc.
        rewrite parse_signed by (try assumption; apply randomizer_length). cbn [bind].
        rewrite parse_tree_pk by assumption. cbn [bind].
        rewrite P. reflexivity.
      + cbn [verify_chain]. change (p_raw (pk_struct p' cseed cI)) with (tree_pk K n H p' cseed cI).
        rewrite lms_verify_signed by assumption. exact V.
      + cbn [map fst snd s_q sig_struct app]. f_equal. exact HQ.
  Qed.

  Lemma leaf_digits_in_range (ps : list param) c :
    Forall wf_param ps ->
    Forall level_ok (combine ps (leaf_digits (heights_of ps) c)).
  Proof.
    intros Fw.
    pose proof (leaf_digits_rev_bound (rev (heights_of ps)) c) as B.
    apply Forall2_rev in B. rewrite rev_involutive in B. fold (leaf_digits (heights_of ps) c) in B.
    revert B. generalize (leaf_digits (heights_of ps) c).
    induction Fw as [|p ps Wp _ IH]; intros qs B; [constructor|].
    inversion B as [|? q ? qs' Hq B']. cbn [combine].
    constructor; [split; assumption|]. apply IH. exact B'.
  Qed.

  Lemma parse_generated_pk L p seed I :
    wf_param p -> length I = c_ilen K -> L < 4294967296 ->
    parse_hss_pk K n (be 4 L ++ tree_pk K n H p seed I) = Ok (L, pk_struct p seed I).
  Proof.
    intros W LI HL. apply parse_hss_pk_Ok. exists (be 4 L), (tree_pk K n H p seed I).
    rewrite be4_dec by assumption. repeat split.
    rewrite <- (app_nil_r (tree_pk _ _ _ _ _ _)). now apply parse_tree_pk.
  Qed.

  Theorem hss_complete (ps : list param) (seed msg : bytes) (c : N) :
    ps <> [] -> (length ps <= c_max_levels K)%nat -> Forall wf_param ps ->
    exists sig pk s,
      hss_signature K n H ps seed c msg = Ok sig
      /\ hss_public_key K n H ps seed = Ok pk
      /\ hss_verify K n H msg sig pk = Ok tt
      /\ parse_hss_sig K n sig = Ok s
      /\ map (fun sp => s_q (fst sp)) (h_spks s) ++ [s_q (h_sig s)] = leaf_digits (heights_of ps) c.
  Proof.
    intros Hne Hlen Fw.
    pose proof (leaf_digits_in_range ps c Fw) as Fl. destruct (combine_leaf_digits ps c) as [Ef Es].
    destruct (combine ps (leaf_digits (heights_of ps) c)) as [|[p0 q0] below] eqn:EC; [now destruct ps|].
    inversion Fl as [|? ? L0 Fl']; subst. cbn [map fst snd length] in *. rewrite map_length in Hlen.
    set (s0 := fst (root_seed_I K H seed)). set (I0 := snd (root_seed_I K H seed)).
    destruct (expand K n H s0 I0 p0 q0 below) as [spks [[[bseed bI] bp] bq]] eqn:EE.
    set (C := randomizer K H bseed bI bq).
    set (bsig := lms_sign_bytes K n H bI bseed (fst bp) (snd bp) bq C msg).
    (* the signed public keys parse back and verify as a chain down to the bottom tree ... *)
    destruct (expand_verifies below s0 I0 p0 q0 bsig spks bseed bI bp bq L0 Fl' (root_I_length seed) EE)
      as (structs & P & V & [Wb Hbq] & HbI & HQ). cbn [fst snd] in Wb, Hbq.
    (* ... whose signature parses back and verifies *)
    set (s := {| h_nspk := N.of_nat (length below); h_spks := structs; h_sig := sig_struct bI bseed bp bq C msg |}).
    assert (PS : parse_hss_sig K n (be 4 (h_nspk s) ++ concat spks ++ bsig) = Ok s).
    { apply parse_hss_sig_Ok. exists (be 4 (h_nspk s)), (concat spks ++ bsig), bsig. cbn [h_nspk h_spks h_sig s].
      rewrite be4_dec, Nat2N.id by lia. repeat split; [lia|exact P|].
      rewrite <- (app_nil_r bsig). apply parse_signed; [assumption..|apply randomizer_length]. }
    exists (be 4 (h_nspk s) ++ concat spks ++ bsig), (be 4 (N.of_nat (S (length below))) ++ tree_pk K n H p0 s0 I0), s.
    split; [|split; [|split; [|split]]].
    - (* signature *) apply hss_signature_Ok. exists p0, q0, below. split; [assumption|].
      fold s0 I0. rewrite EE. reflexivity.
    - (* public key *) apply hss_public_key_Ok. exists p0, (map fst below). cbn [length]. rewrite map_length. auto.
    - (* verdict *) apply hss_verify_Ok.
      exists s, (N.of_nat (S (length below))), (pk_struct p0 s0 I0), (pk_struct bp bseed bI).
      split; [exact PS|]. split; [apply parse_generated_pk; [apply L0|apply root_I_length|lia]|].
      split; [cbn [h_nspk s]; lia|]. split; [exact V|now apply lms_verify_signed].
    - (* parsed form *) exact PS.
    - (* leaf indices *) cbn [h_spks h_sig s_q sig_struct s]. now rewrite HQ.
  Qed.
End HssComplete.
