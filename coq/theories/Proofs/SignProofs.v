(* Key generation + signing + verification put together (C01). *)
From HbsLms Require Import Base.Bytes Model.Consts
     Model.KeyBlob Model.Hss Model.SignCore.
From HbsLms Require Import Proofs.CodecProofs Proofs.HssComplete
     Proofs.KeyBlobProofs Proofs.SignCoreProofs.

Local Open Scope N_scope.

Section SignProofs.
  Variable K : consts.
  Variable n : nat.

  Definition opt_otsp_eqb (a : option otsp) (b : otsp) : bool :=
    match a with Some x => otsp_eqb x b | None => false end.
  Definition opt_lmsp_eqb (a : option lmsp) (b : lmsp) : bool :=
    match a with Some x => lmsp_eqb x b | None => false end.

  (* [wf_param] as a boolean: each row is listed under its own type code; the codes, and a leaf
     index below 2^h (h <= 32), fit the four bytes they are serialised in *)
  Definition wf_param_b (p : param) : bool :=
    opt_otsp_eqb (ots_of_type K n (o_type (fst p))) (fst p) && (o_type (fst p) <? 4294967296)
    && opt_lmsp_eqb (lms_of_type K (l_type (snd p))) (snd p) && (l_type (snd p) <? 4294967296)
    && Nat.leb (l_h (snd p)) 32.

  (* All side conditions on the constants, decidable by computation: the parameter bytes round-trip;
     every constructible pair is well-formed; the build limits list at most [c_max_levels] levels,
     which with the last conjunct makes the level count of a generated key fit its four bytes;
     a tree identifier ([c_ilen] bytes) can be cut from a hash. *)
  Definition model_ok : bool :=
    pack_ok K n
    && forallb wf_param_b (tbl_params K n)
    && Nat.leb (length (c_tree_heights K)) (c_max_levels K)
    && Nat.leb (c_ilen K) n
    && (N.of_nat (c_max_levels K) <? 4294967296).

  Hypothesis OK : model_ok = true.

  Lemma ok_pack : pack_ok K n = true.
  Proof. unfold model_ok in OK. rewrite !andb_true_iff in OK. tauto. Qed.
  Lemma ok_ilen : (c_ilen K <= n)%nat.
  Proof. unfold model_ok in OK. rewrite !andb_true_iff in OK. apply Nat.leb_le. tauto. Qed.
  Lemma ok_levels : N.of_nat (c_max_levels K) < 4294967296.
  Proof. unfold model_ok in OK. rewrite !andb_true_iff in OK. apply N.ltb_lt. tauto. Qed.
  Lemma ok_heights : (length (c_tree_heights K) <= c_max_levels K)%nat.
  Proof. unfold model_ok in OK. rewrite !andb_true_iff in OK. apply Nat.leb_le. tauto. Qed.

  Lemma ok_wf p : In p (tbl_params K n) -> wf_param K n p.
  Proof.
    intros Hin. pose proof OK as O. unfold model_ok in O. rewrite !andb_true_iff in O.
    destruct O as [[[[_ F] _] _] _]. rewrite forallb_forall in F. specialize (F p Hin).
    unfold wf_param_b in F. rewrite !andb_true_iff in F. destruct F as [[[[A B] C] D] E].
    unfold wf_param, wf_ots, wf_lms.
    destruct (ots_of_type K n (o_type (fst p))) as [x|]; [|discriminate].
    destruct (lms_of_type K (l_type (snd p))) as [y|]; [|discriminate].
    apply otsp_eqb_eq in A. apply lmsp_eqb_eq in C. subst.
    apply N.ltb_lt in B, D. apply Nat.leb_le in E. repeat split; assumption.
  Qed.

  Lemma within_limits_length i ps :
    all_within_limits K i ps = true -> (length ps <= length (c_tree_heights K) - i)%nat.
  Proof.
    revert i; induction ps as [|p ps IH]; intros i W; cbn [length]; [lia|].
    cbn [all_within_limits] in W. apply andb_true_iff in W. destruct W as [W1 W2].
    specialize (IH (S i) W2). unfold within_limits in W1.
    destruct (nth_error (c_tree_heights K) i) eqn:E; [|discriminate].
    assert (i < length (c_tree_heights K))%nat by (apply nth_error_Some; congruence). lia.
  Qed.

  (* a parameter list that key generation accepts, with its parameter bytes *)
  Lemma generated_wf ps pb :
    Forall (fun p => In p (tbl_params K n)) ps -> params_to_bytes K ps = Ok pb ->
    (length ps <= c_max_levels K)%nat /\ Forall (wf_param K n) ps.
  Proof.
    intros F E. apply params_to_bytes_Ok in E as (_ & W & _). split.
    - pose proof (within_limits_length 0 ps W). pose proof ok_heights. lia.
    - revert F. apply Forall_impl. exact ok_wf.
  Qed.

  Variable H : bytes -> bytes.
  Hypothesis H_len : forall x, length (H x) = n.

  (* the key of such a list, at any counter c, loads, signs, and what it signs verifies *)
  Lemma load_generated ps seed pb c :
    Forall (fun p => In p (tbl_params K n)) ps -> ps <> [] -> length seed = n ->
    params_to_bytes K ps = Ok pb -> c < 256 ^ N.of_nat (c_used_leafs_size K) ->
    let k := {| k_counter := c; k_params := pb; k_seed := seed |} in
    load_key K n (blob_of K k) = Ok (k, ps).
  Proof.
    intros F Hne Hs EP Hc k. destruct (params_roundtrip K n ok_pack ps pb F Hne EP) as [R L].
    apply load_key_Ok. split; [now apply blob_parse_of|exact R].
  Qed.

  Lemma sign_generated ps seed pb c msg :
    Forall (fun p => In p (tbl_params K n)) ps -> ps <> [] -> length seed = n ->
    params_to_bytes K ps = Ok pb -> c < 256 ^ N.of_nat (c_used_leafs_size K) ->
    let k := {| k_counter := c; k_params := pb; k_seed := seed |} in
    exists sig,
      sign_prepare K n H (blob_of K k) msg = Ok (sig, blob_of K (key_increment K n k ps))
      /\ forall pk, hss_public_key K n H ps seed = Ok pk -> hss_verify K n H msg sig pk = Ok tt.
  Proof.
    intros F Hne Hs EP Hc k. destruct (generated_wf ps pb F EP) as [Hlen Fw].
    destruct (hss_complete K n H H_len ok_ilen ok_levels ps seed msg c Hne Hlen Fw)
      as (sig & pk0 & _ & ES & EK & V & _).
    exists sig. split; [|congruence].
    apply sign_prepare_Ok. exists k, ps. split; [now apply load_generated|now split].
  Qed.

  (* the private key [sk] with its counter field overwritten by c: a generated key at any point of
     its life, without signing c times first *)
  Definition with_counter (sk : bytes) (c : N) : bytes :=
    be (c_used_leafs_size K) c ++ skipn (c_used_leafs_size K) sk.

  Lemma with_counter_blob k c :
    with_counter (blob_of K k) c = blob_of K {| k_counter := c; k_params := k_params k; k_seed := k_seed k |}.
  Proof. unfold with_counter, blob_of. now rewrite skipn_app_exact by apply be_length. Qed.

  Lemma keygen_inv ps seed sk pk :
    Forall (fun p => In p (tbl_params K n)) ps ->
    keygen K n H ps seed = Ok (sk, pk) ->
    exists pb,
      params_to_bytes K ps = Ok pb /\ ps <> [] /\ hss_public_key K n H ps seed = Ok pk
      /\ sk = blob_of K {| k_counter := 0; k_params := pb; k_seed := seed |}.
  Proof.
    intros F E.
    apply bind_Ok in E as (k & E0 & E). apply bind_Ok in E0 as (pb & EP & [= <-]). cbn [k_params] in E.
    apply bind_Ok in E as (ps' & ED & E). apply bind_Ok in E as (pk' & EK & E).
    destruct (Nat.ltb _ _); [discriminate E|]. destruct (Nat.ltb _ _); [discriminate E|]. injection E as <- <-.
    destruct (params_decode_roundtrip K n ok_pack ps pb F EP) as [D L].
    apply params_of_bytes_Ok in ED as [ED Hne]. rewrite D in ED. injection ED as <-. now exists pb.
  Qed.

  (* C01: a signature released for any counter of a generated key verifies under its public key *)
  Theorem sign_then_verify ps seed sk pk c msg cb sig calls :
    Forall (fun p => In p (tbl_params K n)) ps -> length seed = n ->
    keygen K n H ps seed = Ok (sk, pk) ->
    c < 256 ^ N.of_nat (c_used_leafs_size K) ->
    sign_core K n H (with_counter sk c) msg cb = (Ok sig, calls) ->
    hss_verify K n H msg sig pk = Ok tt.
  Proof.
    intros F Hs Ek Hc Es. destruct (keygen_inv ps seed sk pk F Ek) as (pb & EP & Hne & EK & ->).
    destruct (sign_generated ps seed pb c msg F Hne Hs EP Hc) as (sig0 & P & V).
    rewrite with_counter_blob, sign_core_eq in Es. cbn [k_params k_seed] in Es. rewrite P in Es. cbn [ask] in Es.
    destruct (cb _); [|discriminate Es]. injection Es as <- _. exact (V pk EK).
  Qed.

  (* ... and such a signature is produced for every counter whenever the callback accepts *)
  Theorem sign_succeeds ps seed sk pk c msg cb :
    Forall (fun p => In p (tbl_params K n)) ps -> length seed = n ->
    keygen K n H ps seed = Ok (sk, pk) ->
    c < 256 ^ N.of_nat (c_used_leafs_size K) ->
    (forall b, cb b = true) ->
    exists sig next, sign_core K n H (with_counter sk c) msg cb = (Ok sig, [(next, true)]).
  Proof.
    intros F Hs Ek Hc Hcb. destruct (keygen_inv ps seed sk pk F Ek) as (pb & EP & Hne & EK & ->).
    destruct (sign_generated ps seed pb c msg F Hne Hs EP Hc) as (sig0 & P & _).
    rewrite with_counter_blob, sign_core_eq. cbn [k_params k_seed]. rewrite P. cbn [ask]. rewrite Hcb. eauto.
  Qed.
End SignProofs.
