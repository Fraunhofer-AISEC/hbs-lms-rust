(* C10, signing side: the authentication path computed through a good cache is the true path, so
   signing with an absent or good view releases exactly the signature it releases without
   auxiliary data (and records the same callback invocation). *)
From HbsLms Require Import Base.Bytes Model.Consts Model.Lms Model.Derive Model.Counter Model.KeyBlob
     Model.Hss Model.SignCore Model.Aux.
From HbsLms Require Import Proofs.AuxProofs Proofs.HssComplete Proofs.KeyBlobProofs
     Proofs.SignCoreProofs.

Local Open Scope N_scope.

Lemma log2_lxor_1 a : N.log2 (N.lxor a 1) = N.log2 a.
Proof.
  assert (L : forall x, N.log2 (N.lxor x 1) <= N.log2 x).
  { etransitivity; [apply N.log2_lxor|]. change (N.log2 1) with 0. lia. }
  apply N.le_antisymm; [apply L|].
  rewrite <- (N.lxor_0_r a) at 1. rewrite <- (N.lxor_nilpotent 1), <- N.lxor_assoc. apply L.
Qed.

Section AuxSign.
  Variable K : consts.
  Variable n : nat.
  Variable H : bytes -> bytes.
  Hypothesis H_len : forall x, length (H x) = n.

  Variable h : nat.
  Variables (I seed : bytes) (prm : otsp).
  Variable q : N.
  Hypothesis Hq : q < 2 ^ N.of_nat h.

  Definition sibling (i : nat) : N := N.lxor ((2 ^ N.of_nat h + q) / 2 ^ N.of_nat i) 1.

  Lemma sibling_level i : (i < h)%nat -> 1 <= sibling i /\ (node_level (sibling i) + i = h)%nat.
  Proof.
    unfold sibling, node_level.
    assert (E : N.log2 (N.lxor ((2 ^ N.of_nat h + q) / 2 ^ N.of_nat i) 1) = N.of_nat (h - i)).
    { rewrite log2_lxor_1, <- N.shiftr_div_pow2, N.log2_shiftr, (N.log2_unique _ (N.of_nat h)); [lia|lia|].
      rewrite N.pow_succ_r'. lia. }
    destruct (N.lxor _ 1); [cbn in E; lia|lia].
  Qed.

  Lemma auth_path_aux_correct levels :
    forall e,
      Forall (fun i => (i < h)%nat) levels -> wf_exp n e -> cache_ok K n H h I seed prm e ->
      fst (auth_path_aux K n H h I seed prm q levels e)
      = map (fun i => tree K n H h I seed prm i (sibling i)) levels
      /\ wf_exp n (snd (auth_path_aux K n H h I seed prm q levels e))
      /\ cache_ok K n H h I seed prm (snd (auth_path_aux K n H h I seed prm q levels e)).
  Proof.
    induction levels as [|i r IH]; intros e F W C; cbn [auth_path_aux map fst snd]; [split; [reflexivity|split; assumption]|].
    inversion F as [|? ? Hi F']; subst.
    destruct (sibling_level i Hi) as [S1 S2].
    destruct (tree_aux_correct K n H H_len h I seed prm i (sibling i) e S1 S2 W C) as [V [W1 C1]].
    fold (sibling i).
    destruct (tree_aux K n H h I seed prm i (sibling i) e) as [v e1].
    destruct (IH e1 F' W1 C1) as [V2 [W2 C2]].
    destruct (auth_path_aux K n H h I seed prm q r e1) as [vs e2]. cbn [fst snd] in *.
    subst. split; [reflexivity|split; assumption].
  Qed.
End AuxSign.

Section AuxSignTop.
  Variable K : consts.
  Variable n : nat.
  Variable H : bytes -> bytes.
  Hypothesis H_len : forall x, length (H x) = n.

  Lemma lms_sign_bytes_aux_same I seed (p : param) q C msg e :
    q < 2 ^ N.of_nat (l_h (snd p)) -> wf_exp n e -> cache_ok K n H (l_h (snd p)) I seed (fst p) e ->
    lms_sign_bytes_aux K n H I seed p q C msg e
    = (lms_sign_bytes K n H I seed (fst p) (snd p) q C msg, snd (lms_sign_bytes_aux K n H I seed p q C msg e)).
  Proof.
    intros Hq W Ck. unfold lms_sign_bytes_aux.
    assert (F : Forall (fun i => (i < l_h (snd p))%nat) (seq 0 (l_h (snd p)))).
    { apply Forall_forall. intros i Hi. apply in_seq in Hi. lia. }
    destruct (auth_path_aux_correct K n H H_len (l_h (snd p)) I seed (fst p) q Hq (seq 0 (l_h (snd p))) e F W Ck) as [V _].
    destruct (auth_path_aux K n H (l_h (snd p)) I seed (fst p) q (seq 0 (l_h (snd p))) e) as [path e'].
    cbn [fst snd] in *. now subst path.
  Qed.

  Theorem hss_signature_aux_same ps seed c msg e :
    Forall (wf_param K n) ps ->
    (forall p0 r, ps = p0 :: r ->
       wf_exp n e /\ cache_ok K n H (l_h (snd p0)) (snd (root_seed_I K H seed)) (fst (root_seed_I K H seed)) (fst p0) e) ->
    match hss_signature_aux K n H ps seed c msg e with
    | Ok (s, _) => hss_signature K n H ps seed c msg = Ok s
    | Err => hss_signature K n H ps seed c msg = Err
    | Panic => False
    end.
  Proof.
    intros Fw G. unfold hss_signature_aux, hss_signature.
    pose proof (leaf_digits_in_range K n ps c Fw) as Fl. destruct (combine_leaf_digits ps c) as [Ef _].
    destruct (combine ps (leaf_digits (heights_of ps) c)) as [|[p0 q0] below]; [reflexivity|].
    inversion Fl as [|? ? [_ Hq0] _]; subst. cbn [fst snd] in Hq0.
    destruct (G p0 (map fst below) eq_refl) as [W Ck].
    destruct (root_seed_I K H seed) as [s0 I0]. cbn [fst snd] in Ck.
    destruct below as [|[p1 q1] rest].
    - now rewrite (lms_sign_bytes_aux_same I0 s0 p0 q0 _ _ e Hq0 W Ck).
    - rewrite expand_cons. destruct (child_seed_I K H s0 I0 q0) as [cseed cI].
      rewrite (lms_sign_bytes_aux_same I0 s0 p0 q0 _ _ e Hq0 W Ck).
      destruct (expand K n H cseed cI p1 q1 rest) as [spks [[[bseed bI] bp] bq]].
      cbn [concat]. now rewrite <- !app_assoc.
  Qed.
End AuxSignTop.

Section SignCoreAux.
  Variable K : consts.
  Variable n : nat.
  Variable H : bytes -> bytes.
  Hypothesis H_len : forall x, length (H x) = n.

  (* what hss_sign_core does with a buffer before the callback: [sign_prepare], with the signature
     taken through the view of the buffer where there is one *)
  Definition sign_prepare_aux (blob msg aux : bytes) : res (bytes * bytes) :=
    do (k, ps) <- load_key K n blob;
    match ps with
    | [] => Err
    | p0 :: _ =>
      do (oe, _) <- get_expanded K n H aux (k_seed k) (l_h (snd p0));
      let next := blob_of K (key_increment K n k ps) in
      match oe with
      | None => do sig <- hss_signature K n H ps (k_seed k) (k_counter k) msg; Ok (sig, next)
      | Some e => do (sig, _) <- hss_signature_aux K n H ps (k_seed k) (k_counter k) msg e; Ok (sig, next)
      end
    end.

  Lemma sign_core_aux_eq blob msg aux cb :
    fst (sign_core_aux K n H blob msg aux cb) = ask cb (sign_prepare_aux blob msg aux).
  Proof.
    unfold sign_core_aux, sign_prepare_aux, load_key.
    destruct (blob_parse K n blob) as [k| |]; try reflexivity. cbn [bind].
    destruct (params_of_bytes K n (k_params k)) as [[|p0 r]| |]; try reflexivity. cbn [bind].
    destruct (get_expanded K n H aux (k_seed k) (l_h (snd p0))) as [[[e|] aux1]| |]; try reflexivity; cbn [bind];
      [destruct (hss_signature_aux K n H (p0 :: r) (k_seed k) (k_counter k) msg e) as [[s e']| |]
      |destruct (hss_signature K n H (p0 :: r) (k_seed k) (k_counter k) msg)];
      try reflexivity; cbn [bind ask]; destruct (cb _); reflexivity.
  Qed.

  Theorem sign_core_aux_same blob msg aux cb :
    (forall k p0 r oe aux1,
        blob_parse K n blob = Ok k -> params_of_bytes K n (k_params k) = Ok (p0 :: r) ->
        get_expanded K n H aux (k_seed k) (l_h (snd p0)) = Ok (oe, aux1) ->
        Forall (wf_param K n) (p0 :: r)
        /\ good_view K n H (l_h (snd p0)) (snd (root_seed_I K H (k_seed k))) (fst (root_seed_I K H (k_seed k))) (fst p0) oe) ->
    (forall k p0 r, blob_parse K n blob = Ok k -> params_of_bytes K n (k_params k) = Ok (p0 :: r) ->
                    exists oe aux1, get_expanded K n H aux (k_seed k) (l_h (snd p0)) = Ok (oe, aux1)) ->
    let '(r, calls, _) := sign_core_aux K n H blob msg aux cb in
    (r, calls) = sign_core K n H blob msg cb.
  Proof.
    intros G NP. pose proof (sign_core_aux_eq blob msg aux cb) as E.
    destruct (sign_core_aux K n H blob msg aux cb) as [[r calls] a]. cbn [fst] in E. rewrite E, sign_core_eq.
    unfold sign_prepare_aux, sign_prepare.
    destruct (load_key K n blob) as [[k [|p0 ps]]| |] eqn:EL; try reflexivity. cbn [bind].
    apply load_key_Ok in EL as [EB EP]. destruct (NP k p0 ps EB EP) as (oe & aux1 & EG). rewrite EG. cbn [bind].
    destruct (G k p0 ps oe aux1 EB EP EG) as [Fw GV]. destruct oe as [e|]; [|reflexivity].
    pose proof (hss_signature_aux_same K n H H_len (p0 :: ps) (k_seed k) (k_counter k) msg e Fw) as S.
    specialize (S ltac:(now intros p1 r1 [= <- <-])).
    destruct (hss_signature_aux K n H (p0 :: ps) (k_seed k) (k_counter k) msg e) as [[s e']| |];
      [now rewrite S..|contradiction].
  Qed.
End SignCoreAux.
