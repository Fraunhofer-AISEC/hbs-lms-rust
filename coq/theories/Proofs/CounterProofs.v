(* Lemmas about Model/Counter.v: mixed-radix leaf selection, increment, lifetime. *)
From HbsLms Require Import Base.Bytes Model.Counter.

Local Open Scope N_scope.

(* value of a mixed-radix digit list, least significant (bottom level) first *)
Fixpoint mr_value (hs_rev qs_rev : list N) : N :=
  match hs_rev, qs_rev with
  | h :: hr, q :: qr => q + 2 ^ h * mr_value hr qr
  | _, _ => 0
  end.

Lemma sumN_cons x a : sumN (x :: a) = x + sumN a.
Proof. reflexivity. Qed.

Lemma sumN_app a b : sumN (a ++ b) = sumN a + sumN b.
Proof. induction a as [|x a IH]; [reflexivity|]. cbn [app]. rewrite !sumN_cons. lia. Qed.

Lemma sumN_rev a : sumN (rev a) = sumN a.
Proof.
  induction a as [|x a IH]; [reflexivity|]. cbn [rev]. rewrite sumN_app, IH, !sumN_cons. cbn. lia.
Qed.

Lemma fold_add_sum {A} (f : A -> N) l a :
  fold_left (fun acc i => acc + f i) l a = a + sumN (map f l).
Proof.
  revert a; induction l as [|x l IH]; intros a; cbn [fold_left map sumN fold_right]; [lia|].
  rewrite IH. fold (sumN (map f l)). lia.
Qed.

Lemma fold_add_N l a : fold_left N.add l a = a + sumN l.
Proof. rewrite <- (map_id l) at 2. exact (fold_add_sum (fun x => x) l a). Qed.

(* what the Winternitz checksum rests on: a list and its complements to M add up to M per element *)
Lemma sum_defect M ds :
  Forall (fun d => d <= M) ds ->
  sumN (map (fun d => M - d) ds) + sumN ds = M * N.of_nat (length ds).
Proof.
  induction 1 as [|d ds Hd _ IH]; cbn [map sumN fold_right length]; [lia|].
  fold (sumN ds) (sumN (map (fun d0 => M - d0) ds)). lia.
Qed.

Lemma Forall2_le_sum a b : Forall2 N.le a b -> sumN a <= sumN b.
Proof. induction 1; cbn [sumN fold_right]; [lia|]. fold (sumN l) (sumN l'). lia. Qed.

Lemma Forall2_le_sum_eq a b : Forall2 N.le a b -> sumN a = sumN b -> a = b.
Proof.
  induction 1 as [|x y l l' Hxy F IH]; [reflexivity|]. cbn [sumN fold_right].
  fold (sumN l) (sumN l'). intros E. pose proof (Forall2_le_sum _ _ F).
  f_equal; [lia|]. apply IH. lia.
Qed.

(* one level of [leaf_digits_rev], and of the value it splits, in terms of mod and / *)
Lemma leaf_digits_rev_cons h r c :
  leaf_digits_rev (h :: r) c = c mod 2 ^ h :: leaf_digits_rev r (c / 2 ^ h).
Proof. cbn [leaf_digits_rev]. now rewrite land_pow2_m1, N.shiftr_div_pow2. Qed.

Lemma mod_pow2_cons c h r :
  c mod 2 ^ sumN (h :: r) = c mod 2 ^ h + 2 ^ h * ((c / 2 ^ h) mod 2 ^ sumN r).
Proof. rewrite sumN_cons, N.pow_add_r. apply N.mod_mul_r; apply N.pow_nonzero; lia. Qed.

Lemma leaf_digits_rev_length hs c : length (leaf_digits_rev hs c) = length hs.
Proof. revert c; induction hs as [|h r IH]; intros c; cbn; [reflexivity|now rewrite IH]. Qed.

Lemma leaf_digits_length hs c : length (leaf_digits hs c) = length hs.
Proof. unfold leaf_digits. now rewrite rev_length, leaf_digits_rev_length, rev_length. Qed.

Lemma leaf_digits_rev_value hs c :
  mr_value hs (leaf_digits_rev hs c) = c mod 2 ^ sumN hs.
Proof.
  revert c; induction hs as [|h r IH]; intros c.
  - now rewrite N.mod_1_r.
  - rewrite leaf_digits_rev_cons, mod_pow2_cons. cbn [mr_value]. now rewrite IH.
Qed.

Lemma leaf_digits_rev_bound hs c :
  Forall2 (fun h q => q < 2 ^ h) hs (leaf_digits_rev hs c).
Proof.
  revert c; induction hs as [|h r IH]; intros c; [constructor|].
  rewrite leaf_digits_rev_cons. constructor; [apply mod_pow2_lt|apply IH].
Qed.

Lemma leaf_digits_rev_nth hs c i h :
  nth_error hs i = Some h ->
  nth_error (leaf_digits_rev hs c) i = Some ((c / 2 ^ sumN (firstn i hs)) mod 2 ^ h).
Proof.
  revert c i; induction hs as [|h0 r IH]; destruct i as [|i]; try discriminate;
    rewrite leaf_digits_rev_cons; cbn [nth_error firstn].
  - intros [= ->]. now rewrite N.div_1_r.
  - intros E. rewrite (IH _ _ E), sumN_cons, N.pow_add_r, N.div_div by (apply N.pow_nonzero; lia). reflexivity.
Qed.

Lemma mr_value_inj hs q1 q2 :
  Forall2 (fun h q => q < 2 ^ h) hs q1 -> Forall2 (fun h q => q < 2 ^ h) hs q2 ->
  mr_value hs q1 = mr_value hs q2 -> q1 = q2.
Proof.
  intros F1; revert q2; induction F1 as [|h a hr ar Ha _ IH]; intros q2 F2 E.
  - inversion F2. reflexivity.
  - inversion F2 as [|? b ? br Hb Fr]; subst. cbn [mr_value] in E.
    rewrite !(N.add_comm _ (2 ^ h * _)) in E.
    apply N.div_mod_unique in E; [|assumption..]. destruct E as [E ->].
    f_equal. now apply IH.
Qed.

Lemma leaf_digits_rev_inj hs c1 c2 :
  c1 < 2 ^ sumN hs -> c2 < 2 ^ sumN hs ->
  leaf_digits_rev hs c1 = leaf_digits_rev hs c2 -> c1 = c2.
Proof.
  intros H1 H2 E. apply (f_equal (mr_value hs)) in E.
  rewrite !leaf_digits_rev_value in E. now rewrite !N.mod_small in E by assumption.
Qed.

Lemma rev_leaf_digits hs c : rev (leaf_digits hs c) = leaf_digits_rev (rev hs) c.
Proof. apply rev_involutive. Qed.

Lemma leaf_digits_inj hs c1 c2 :
  c1 < 2 ^ sumN hs -> c2 < 2 ^ sumN hs ->
  leaf_digits hs c1 = leaf_digits hs c2 -> c1 = c2.
Proof.
  rewrite <- (sumN_rev hs). intros H1 H2 E. apply (leaf_digits_rev_inj (rev hs)); try assumption.
  now rewrite <- !rev_leaf_digits, E.
Qed.

Lemma incr_small hs c :
  sumN hs < 64 ->
  incr hs c = if c <? 2 ^ sumN hs - 1 then Some (c + 1) else None.
Proof.
  intros Hs. unfold incr, last_counter.
  destruct (N.ltb_spec (sumN hs) 64) as [_|]; [|lia].
  destruct (N.leb_spec (2 ^ sumN hs - 1) c), (N.ltb_spec c (2 ^ sumN hs - 1)); try lia; reflexivity.
Qed.

Lemma incr_tall hs c :
  64 <= sumN hs -> c < u64_max -> incr hs c = Some (c + 1).
Proof.
  intros Hs Hc. unfold incr, last_counter.
  destruct (N.ltb_spec (sumN hs) 64); [lia|].
  destruct (N.leb_spec u64_max c); [lia|reflexivity].
Qed.

Fixpoint prodN (l : list N) : N :=
  match l with [] => 1 | x :: r => x * prodN r end.

Lemma prodN_app a b : prodN (a ++ b) = prodN a * prodN b.
Proof. induction a as [|x a IH]; cbn [prodN app]; [lia|]. rewrite IH. lia. Qed.

Lemma sat_mul_min a b : 1 <= b -> sat_mul (N.min a u64_max) b = N.min (a * b) u64_max.
Proof. unfold sat_mul. nia. Qed.

Lemma sat_add_min a b : sat_add (N.min a u64_max) (N.min b u64_max) = N.min (a + b) u64_max.
Proof. unfold sat_add. lia. Qed.

Lemma fold_sat_mul below a :
  Forall (fun x => 1 <= x) below ->
  fold_left sat_mul below (N.min a u64_max) = N.min (a * prodN below) u64_max.
Proof.
  intros F; revert a; induction F as [|x r Hx _ IH]; intros a; cbn [fold_left prodN].
  - f_equal. lia.
  - rewrite sat_mul_min by assumption. rewrite IH. f_equal. lia.
Qed.

(* Exact (unbounded) value of the loop over the levels [combine hs us], bottom level first: a level
   contributes its unused leaves 2^h - u, each worth [P] bottom leaves, [P] being the product of the
   tree sizes below it (1 at the bottom).  For the used counts that key expansion leaves behind the
   total is 2^(sum of heights) - c ([life_exact_key]). *)
Fixpoint life_exact (hs us : list N) (P : N) : N :=
  match hs, us with
  | h :: hr, u :: ur => (2 ^ h - u) * P + life_exact hr ur (P * 2 ^ h)
  | _, _ => 0
  end.

Lemma lifetime_loop_exact hs us below a :
  Forall2 (fun h u => u <= 2 ^ h) hs us -> Forall (fun h => h <= 63) hs ->
  Forall (fun x => 1 <= x) below ->
  lifetime_loop (combine hs us) below (N.min a u64_max) =
  Ok (N.min (a + life_exact hs us (prodN below)) u64_max).
Proof.
  intros F; revert below a; induction F as [|h u hr ur Hu _ IH]; intros below a Fh Fb.
  - cbn. f_equal. f_equal. lia.
  - cbn [combine lifetime_loop life_exact]. inversion Fh as [|? ? Hh Fh']; subst.
    destruct (N.ltb_spec (2 ^ h) u) as [|_]; [lia|].
    assert (Hfree : 2 ^ h - u <= u64_max).
    { assert (2 ^ h <= 2 ^ 63) by (apply N.pow_le_mono_r; lia).
      unfold u64_max. lia. }
    rewrite <- (N.min_l _ _ Hfree) at 1.
    rewrite fold_sat_mul by assumption. rewrite sat_add_min, IH; [|assumption|].
    + rewrite prodN_app. cbn [prodN]. rewrite N.mul_1_r. f_equal. f_equal. lia.
    + apply Forall_app. split; [assumption|]. constructor; [lia|constructor].
Qed.

(* bottom-first view of [used_after_expand] *)
Definition used_rev_of (qs_rev : list N) : list N :=
  match qs_rev with
  | [] => []
  | q :: r => q :: map (fun x => x + 1) r
  end.

Lemma used_after_expand_cons q q' r :
  used_after_expand (q :: q' :: r) = (q + 1) :: used_after_expand (q' :: r).
Proof. reflexivity. Qed.

Lemma used_after_expand_rev qs :
  rev (used_after_expand qs) = used_rev_of (rev qs).
Proof.
  induction qs as [|q [|q' r] IH]; [reflexivity..|].
  rewrite used_after_expand_cons. cbn [rev] in *. rewrite IH.
  destruct (rev r ++ [q']) as [|x l] eqn:E.
  - destruct (rev r); discriminate.
  - cbn [used_rev_of app map]. now rewrite map_app.
Qed.

Lemma used_after_expand_length qs : length (used_after_expand qs) = length qs.
Proof.
  induction qs as [|q [|q' r] IH]; [reflexivity..|].
  rewrite used_after_expand_cons. cbn [length] in *. now rewrite IH.
Qed.

(* The induction step of [life_exact_upper], about one level:
     A its size 2^h, a its digit of the counter, P the bottom leaves under one of its leaves;
     S the size of the levels over it taken together, b their part of the counter, L their share
     of the sum.  Written as a sum to keep truncated subtraction out. *)
Lemma level_sum A S a b P L :
  a < A -> L + b * (P * A) + P * A = S * (P * A) ->
  (A - (a + 1)) * P + L + (a + A * b) * P + P = A * S * P.
Proof.
  intros Ha E. assert (exists a', A = a + 1 + a') as [a' ->] by (exists (A - (a + 1)); lia).
  lia.
Qed.

(* upper levels: each has already handed out its current leaf *)
Lemma life_exact_upper hs c P :
  life_exact hs (map (fun x => x + 1) (leaf_digits_rev hs c)) P + c mod 2 ^ sumN hs * P + P
  = 2 ^ sumN hs * P.
Proof.
  revert c P; induction hs as [|h r IH]; intros c P.
  - cbn. change (2 ^ 0) with 1. rewrite N.mod_1_r. lia.
  - rewrite leaf_digits_rev_cons, mod_pow2_cons, sumN_cons, N.pow_add_r.
    apply level_sum; [apply mod_pow2_lt|apply IH].
Qed.

(* the bottom level has not: its current leaf is still to be used *)
Lemma life_exact_key hs c :
  hs <> [] ->
  life_exact hs (used_rev_of (leaf_digits_rev hs c)) 1 + c mod 2 ^ sumN hs = 2 ^ sumN hs.
Proof.
  destruct hs as [|h r]; [congruence|intros _].
  (* differs from the upper-level sum by the one leaf of the bottom level *)
  pose proof (life_exact_upper (h :: r) c 1) as U. rewrite leaf_digits_rev_cons in *.
  cbn [map used_rev_of life_exact] in *.
  pose proof (mod_pow2_lt c h) as Ha.
  (* the remainders are hidden: lia would otherwise expand them over the powers, which is slow *)
  revert U Ha. generalize (c mod 2 ^ h), (c mod 2 ^ sumN (h :: r)). lia.
Qed.

Lemma used_bound hs c :
  Forall2 (fun h u => u <= 2 ^ h) hs (used_rev_of (leaf_digits_rev hs c)).
Proof.
  destruct (leaf_digits_rev_bound hs c) as [|h q hr qr Hq B]; constructor; [lia|].
  induction B; constructor; [lia|assumption].
Qed.

Lemma lifetime_closed hs c :
  hs <> [] -> Forall (fun h => h <= 63) hs ->
  lifetime hs c = Ok (N.min (2 ^ sumN hs - c mod 2 ^ sumN hs) u64_max).
Proof.
  intros Hne Hh. unfold lifetime, lifetime_of.
  rewrite combine_rev_eq by (now rewrite used_after_expand_length, leaf_digits_length).
  rewrite used_after_expand_rev, rev_leaf_digits.
  change 0 with (N.min 0 u64_max) at 1.
  rewrite lifetime_loop_exact by (apply used_bound || apply Forall_rev, Hh || constructor).
  assert (Hr : rev hs <> []) by (intros E; apply Hne; now rewrite <- (rev_involutive hs), E).
  pose proof (life_exact_key (rev hs) c Hr) as E. rewrite sumN_rev in E.
  cbn [prodN]. do 2 f_equal. lia.
Qed.
