(* The constants and type-code tables of the current source (Gen/Generated.v) meet the side
   conditions of the RFC theorems, and its parameter rows are RFC 8554's except the three
   known-finding rows and the 4-leaf test type.  All by computation over the finite tables. *)
From HbsLms Require Import Base.Bytes Model.Consts Spec.Rfc8554.
From HbsLms Require Import Proofs.RfcCore Proofs.RfcVerifyEquiv Gen.Generated.

Local Open Scope N_scope.

Lemma source_consts_rfc : consts_rfc K_src = true.
Proof. vm_compute. reflexivity. Qed.

Lemma source_tables_ok : forallb (tables_ok K_src) [16%nat; 24%nat; 32%nat] = true.
Proof. vm_compute. reflexivity. Qed.

Lemma tables_ok_n n : In n [16%nat; 24%nat; 32%nat] -> tables_ok K_src n = true.
Proof. exact (proj1 (forallb_forall _ _) source_tables_ok n). Qed.

(* one more bit of the positive [p]; a branch closes once the code is decided or out of range *)
Ltac next_bit p := try (destruct p as [p|p|]; try reflexivity; try lia).

(* codes above the tables' range: none has a row, on either side *)
Lemma rfc_ots_tbl_none n code : 5 <= code -> rfc_ots_tbl n code = None.
Proof. destruct code as [|p]; [lia|]. next_bit p; next_bit p; next_bit p. Qed.

Lemma rfc_lms_tbl_none code : 10 <= code -> rfc_lms_tbl code = None.
Proof. destruct code as [|p]; [lia|]. next_bit p; next_bit p; next_bit p; next_bit p. Qed.

Lemma ots_tbl_none n code : 5 <= code -> ots_tbl_of K_src n code = None.
Proof.
  intros Hc. unfold ots_tbl_of. destruct (ots_of_type K_src n code) as [|] eqn:E; [|reflexivity].
  unfold ots_of_type in E. destruct (assoc code (c_ots_get_from_type K_src)) as [v|] eqn:A; [|discriminate].
  apply assoc_key in A. cbn in A. lia.
Qed.

Lemma lms_tbl_none code : 10 <= code -> lms_tbl_of K_src code = None.
Proof.
  intros Hc. unfold lms_tbl_of. destruct (lms_of_type K_src code) as [lp|] eqn:E; [|reflexivity].
  unfold lms_of_type in E. destruct (assoc code (c_lms_get_from_type K_src)) as [v|] eqn:A; [|discriminate].
  apply assoc_key in A. cbn in A. lia.
Qed.

Lemma source_tables_rfc :
  (forall n code, In n [16%nat; 24%nat; 32%nat] ->
     ots_tbl_of K_src n code = rfc_ots_tbl n code
     \/ In (n, code) [(16%nat, 1); (16%nat, 2); (24%nat, 1)])
  /\ (forall code, lms_tbl_of K_src code = if code =? 1 then Some 2 else rfc_lms_tbl code).
Proof.
  split.
  - intros n code Hn. destruct (N.le_gt_cases 5 code) as [Hc|Hc].
    + left. now rewrite ots_tbl_none, rfc_ots_tbl_none.
    + assert (C : code = 0 \/ code = 1 \/ code = 2 \/ code = 3 \/ code = 4) by lia.
      destruct Hn as [<-|[<-|[<-|[]]]];
        destruct C as [->|[->|[->|[->| ->]]]];
        first [left; vm_compute; reflexivity | right; cbn; tauto].
  - intros code. destruct (N.le_gt_cases 10 code) as [Hc|Hc].
    + rewrite lms_tbl_none, rfc_lms_tbl_none by assumption.
      destruct (N.eqb_spec code 1); [lia|reflexivity].
    + assert (C : code = 0 \/ code = 1 \/ code = 2 \/ code = 3 \/ code = 4 \/ code = 5
                  \/ code = 6 \/ code = 7 \/ code = 8 \/ code = 9) by lia.
      destruct C as [->|[->|[->|[->|[->|[->|[->|[->|[->| ->]]]]]]]]]; vm_compute; reflexivity.
Qed.

(* none of the three deviating rows is a row for n = 32 *)
Lemma source_ots_tbl_32 c : ots_tbl_of K_src 32 c = rfc_ots_tbl 32 c.
Proof.
  destruct (proj1 source_tables_rfc 32%nat c) as [E|[X|[X|[X|[]]]]]; try discriminate X; [cbn; tauto|exact E].
Qed.

(* so for 32-byte hashes every row of RFC 8554 is a row of the source *)
Lemma rfc_tables_in_source :
  (forall c r, rfc_ots_tbl 32 c = Some r -> ots_tbl_of K_src 32 c = Some r)
  /\ (forall c h, rfc_lms_tbl c = Some h -> lms_tbl_of K_src c = Some h).
Proof.
  split.
  - intros c r E. now rewrite source_ots_tbl_32.
  - intros c h E. rewrite (proj2 source_tables_rfc). destruct (N.eqb_spec c 1) as [->|]; [discriminate E|exact E].
Qed.
