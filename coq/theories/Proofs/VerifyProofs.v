(* The verifier of Model/Hss.v: what acceptance amounts to and what the checks alone reject, for every
   hash function and every content (C02); and that no outcome of parsing or verification is a panic,
   since the parsers use checked cursor reads only (C06). *)
From HbsLms Require Import Base.Bytes Model.Consts Model.Lms Model.Codec Model.Hss.
From HbsLms Require Import Proofs.CodecProofs.

Local Open Scope N_scope.

Section Acceptance.
  Variable K : consts.
  Variable n : nat.

  Theorem extended_signature_rejected sig s e :
    parse_hss_sig K n sig = Ok s -> e <> [] -> parse_hss_sig K n (sig ++ e) = Err.
  Proof.
    intros E He. apply parse_hss_sig_Ok in E as (nb & r1 & r2 & -> & L1 & Enb & _ & E2 & E3).
    unfold parse_hss_sig. rewrite <- app_assoc, bind_rd_app by assumption. rewrite <- Enb.
    destruct (_ <=? _); [reflexivity|].
    rewrite (parse_spks_extend _ _ _ _ _ _ e E2). cbn [bind].
    rewrite (parse_lms_sig_extend _ _ _ _ _ e E3). cbn [bind app]. now destruct e.
  Qed.

  Theorem extended_public_key_rejected pk r e :
    parse_hss_pk K n pk = Ok r -> e <> [] -> parse_hss_pk K n (pk ++ e) = Err.
  Proof.
    destruct r as [L key]. intros E He. apply parse_hss_pk_Ok in E as (lb & r1 & -> & L1 & _ & E2).
    unfold parse_hss_pk. rewrite <- app_assoc, bind_rd_app by assumption.
    rewrite (parse_lms_pk_extend _ _ _ _ _ e E2). cbn [bind app]. now destruct e.
  Qed.

  Variable H : bytes -> bytes.

  Theorem lms_verify_true s key msg :
    lms_verify K n H s key msg = true <->
    s_ots s = p_ots key /\ s_lms s = p_lms key /\ s_q s < 2 ^ N.of_nat (l_h (s_lms s))
    /\ lms_candidate K n H (p_I key) (s_ots s) (s_lms s) (s_q s) (s_C s) (s_y s) (s_path s) msg = p_key key.
  Proof.
    unfold lms_verify. rewrite !andb_true_iff, otsp_eqb_eq, lmsp_eqb_eq, N.ltb_lt, bytes_eqb_eq. tauto.
  Qed.

  (* acceptance is every structural condition of RFC 8554 section 6.3 / Algorithms 6, 6a *)
  Theorem hss_verify_Ok msg sig pk :
    hss_verify K n H msg sig pk = Ok tt <->
    exists s L key key',
      parse_hss_sig K n sig = Ok s /\ parse_hss_pk K n pk = Ok (L, key)
      /\ h_nspk s + 1 = L
      /\ verify_chain K n H key (h_spks s) = Some key'
      /\ lms_verify K n H (h_sig s) key' msg = true.
  Proof.
    unfold hss_verify. split.
    - intros E. apply bind_Ok in E as (s & PS & E). apply bind_Ok in E as ([L key] & PP & E).
      destruct (N.eqb_spec (h_nspk s + 1) L) as [EL|]; cbn [negb] in E; [|discriminate E].
      destruct (verify_chain K n H key (h_spks s)) as [key'|] eqn:VC; [|discriminate E].
      destruct (lms_verify K n H (h_sig s) key' msg) eqn:LV; [|discriminate E].
      now exists s, L, key, key'.
    - intros (s & L & key & key' & -> & -> & EL & VC & LV). cbn [bind].
      now rewrite (proj2 (N.eqb_eq _ _) EL), VC, LV.
  Qed.

  Lemma verify_chain_last key spks key' :
    verify_chain K n H key spks = Some key' -> key' = last (map snd spks) key.
  Proof.
    revert key; induction spks as [|[s pk] rest IH]; intros key; cbn [verify_chain map snd].
    - now intros [= <-].
    - destruct (lms_verify K n H s key (p_raw pk)); [|discriminate]. intros E%IH. now rewrite last_cons.
  Qed.

  (* the message enters at the last level only: under an accepted signature and key, another
     message meets the same chain of signed public keys *)
  Lemma hss_verify_other_msg msg msg' sig pk s L key :
    hss_verify K n H msg sig pk = Ok tt ->
    parse_hss_sig K n sig = Ok s -> parse_hss_pk K n pk = Ok (L, key) ->
    hss_verify K n H msg' sig pk
    = if lms_verify K n H (h_sig s) (last (map snd (h_spks s)) key) msg' then Ok tt else Err.
  Proof.
    intros (s1 & L1 & key1 & key' & PS1 & PP1 & EL & VC & _)%hss_verify_Ok PS PP.
    rewrite PS in PS1. rewrite PP in PP1. injection PS1 as <-. injection PP1 as <- <-.
    unfold hss_verify. rewrite PS, PP. cbn [bind].
    now rewrite (proj2 (N.eqb_eq _ _) EL), VC, (verify_chain_last _ _ _ VC).
  Qed.

  (* the root of a public key is compared with the recomputed one, nothing else: a signature
     accepted under one root is rejected under any other root for the same tree identifier *)
  Lemma hss_verify_other_root msg sig pk pk' L L' key key' :
    hss_verify K n H msg sig pk = Ok tt ->
    parse_hss_pk K n pk = Ok (L, key) -> parse_hss_pk K n pk' = Ok (L', key') ->
    p_I key' = p_I key -> p_key key' <> p_key key ->
    hss_verify K n H msg sig pk' = Err.
  Proof.
    intros (s & L1 & key1 & kl & PS & PP1 & _ & VC & V)%hss_verify_Ok PP PP' EI Hk.
    rewrite PP in PP1. injection PP1 as <- <-.
    assert (R : forall sg m, lms_verify K n H sg key m = true -> lms_verify K n H sg key' m = false).
    { intros sg m (_ & _ & _ & D)%lms_verify_true. destruct (lms_verify K n H sg key' m) eqn:V'; [|reflexivity].
      apply lms_verify_true in V' as (_ & _ & _ & D'). rewrite EI, D in D'. now symmetry in D'. }
    unfold hss_verify. rewrite PS, PP'. cbn [bind]. destruct (negb _); [reflexivity|].
    destruct (h_spks s) as [|[s0 pk1] rest]; cbn [verify_chain] in *.
    - injection VC as <-. now rewrite (R _ _ V).
    - destruct (lms_verify K n H s0 key (p_raw pk1)) eqn:V0; [|discriminate]. now rewrite (R _ _ V0).
  Qed.
End Acceptance.

Section Totality.
  Variable K : consts.
  Variable n : nat.

  Lemma parse_lms_sig_total data : parse_lms_sig K n data <> Panic.
  Proof. repeat bind_total. now destruct (_ <=? _). Qed.

  Lemma parse_lms_pk_total data : parse_lms_pk K n data <> Panic.
  Proof. repeat bind_total. discriminate. Qed.

  Hint Resolve parse_lms_sig_total parse_lms_pk_total : total.

  Lemma parse_spks_total k data : parse_spks K n k data <> Panic.
  Proof.
    revert data; induction k as [|k IH]; intros data; cbn [parse_spks]; [discriminate|].
    repeat bind_total. discriminate.
  Qed.

  Hint Resolve parse_spks_total : total.

  Lemma parse_hss_sig_total data : parse_hss_sig K n data <> Panic.
  Proof.
    unfold parse_hss_sig. bind_total. destruct (_ <=? _); [discriminate|].
    bind_total. bind_total as [s r3]. now destruct r3.
  Qed.

  Lemma parse_hss_pk_total data : parse_hss_pk K n data <> Panic.
  Proof. bind_total. bind_total as [p r2]. now destruct r2. Qed.

  Hint Resolve parse_hss_sig_total parse_hss_pk_total : total.

  Variable H : bytes -> bytes.

  Theorem hss_verify_total msg sig pk : hss_verify K n H msg sig pk <> Panic.
  Proof.
    repeat bind_total. destruct (negb _); [discriminate|].
    destruct (verify_chain _ _ _ _ _); [|discriminate]. now destruct (lms_verify _ _ _ _ _ _).
  Qed.
End Totality.

#[export] Hint Resolve parse_lms_sig_total parse_lms_pk_total parse_spks_total parse_hss_sig_total
  parse_hss_pk_total hss_verify_total : total.
