(* C03, end to end over one key: where the signed public keys sit inside a released signature,
   and that two signatures whose leaf indices agree down to level m carry identical signed
   public keys down to level m -- i.e. an upper-level one-time key (addressed by the leaf
   indices of the levels above and its own) only ever signs one content. *)
From HbsLms Require Import Base.Bytes Model.Consts Model.Derive Model.Counter Model.KeyBlob Model.Hss.
From HbsLms Require Import Proofs.HssComplete.

Section NoReuse.
  Variable K : consts.
  Variable n : nat.
  Variable H : bytes -> bytes.

  (* the signed public key of level l depends only on the parameters and on the leaf indices
     q_0 .. q_l of the levels down to l *)
  Lemma expand_prefix m :
    forall below1 below2 seed I p q,
      map fst below1 = map fst below2 ->
      firstn m (map snd below1) = firstn m (map snd below2) ->
      firstn (S m) (fst (expand K n H seed I p q below1))
      = firstn (S m) (fst (expand K n H seed I p q below2)).
  Proof.
    intros below1. revert m.
    induction below1 as [|[p1 q1] r1 IH]; intros m [|[p2 q2] r2] seed I p q EP EQ; try discriminate EP; [reflexivity|].
    injection EP as <- EP. rewrite !expand_cons. destruct (child_seed_I K H seed I q) as [cs cI].
    destruct m as [|m].
    - destruct (expand K n H cs cI p1 q1 r1), (expand K n H cs cI p1 q2 r2). reflexivity.
    - injection EQ as <- EQ. specialize (IH m r2 cs cI p1 q1 EP EQ).
      destruct (expand K n H cs cI p1 q1 r1), (expand K n H cs cI p1 q1 r2). cbn [fst firstn] in *. now f_equal.
  Qed.

  (* the signed public keys (LMS signature by level i over the public key of level i+1, then
     that key) carried by the signature for counter c *)
  Definition signed_pks (ps : list param) (seed : bytes) (c : N) : list bytes :=
    match combine ps (leaf_digits (heights_of ps) c) with
    | [] => []
    | (p0, q0) :: below =>
      let (s0, I0) := root_seed_I K H seed in fst (expand K n H s0 I0 p0 q0 below)
    end.

  Lemma signed_pks_eq ps seed c p0 q0 below :
    combine ps (leaf_digits (heights_of ps) c) = (p0, q0) :: below ->
    signed_pks ps seed c
    = fst (expand K n H (fst (root_seed_I K H seed)) (snd (root_seed_I K H seed)) p0 q0 below).
  Proof. unfold signed_pks. intros ->. now destruct (root_seed_I K H seed). Qed.

  Lemma signature_layout ps seed c msg sig :
    hss_signature K n H ps seed c msg = Ok sig ->
    exists tail, sig = be 4 (N.of_nat (length ps - 1)) ++ concat (signed_pks ps seed c) ++ tail.
  Proof.
    intros (p0 & q0 & below & EC & ->)%hss_signature_Ok.
    rewrite (signed_pks_eq _ _ _ _ _ _ EC). destruct (combine_leaf_digits ps c) as [Ef _]. rewrite EC in Ef. subst ps.
    cbn [map length fst]. rewrite map_length, Nat.sub_succ, Nat.sub_0_r. eexists. reflexivity.
  Qed.

  Lemma signed_pks_prefix ps seed c1 c2 m :
    firstn (S m) (leaf_digits (heights_of ps) c1) = firstn (S m) (leaf_digits (heights_of ps) c2) ->
    firstn (S m) (signed_pks ps seed c1) = firstn (S m) (signed_pks ps seed c2).
  Proof.
    intros E. destruct (combine_leaf_digits ps c1) as [F1 S1], (combine_leaf_digits ps c2) as [F2 S2].
    rewrite <- S1, <- S2 in E. clear S1 S2. unfold signed_pks. revert F1 F2 E.
    generalize (combine ps (leaf_digits (heights_of ps) c1)) (combine ps (leaf_digits (heights_of ps) c2)).
    intros [|[p1 q1] b1] [|[p2 q2] b2] <- F2 E; cbn [map fst] in F2; try discriminate F2; [reflexivity|].
    injection F2 as -> F2. cbn [map snd firstn] in E. injection E as -> E.
    now apply expand_prefix.
  Qed.
End NoReuse.
