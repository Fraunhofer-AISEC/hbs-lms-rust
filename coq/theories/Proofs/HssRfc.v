(* C07 / C08: what the model signs and generates is the RFC 8554 byte string over the hash-sigs
   derivation. *)
From HbsLms Require Import Base.Bytes Model.Consts Model.Lms Model.Derive Model.Counter Model.KeyBlob
     Model.Hss.
From HbsLms Require Import Spec.Rfc8554 Spec.HashSigs Spec.HssSpec.
From HbsLms Require Import Proofs.WinternitzDom Proofs.RfcCore Proofs.HashSigsProofs Proofs.HssComplete.

Section HssRfc.
  Variable K : consts.
  Variable n : nat.
  Variable H : bytes -> bytes.
  Hypothesis H_len : forall x, length (H x) = n.
  (* 16 <= n: a tree identifier is the first 16 bytes of a hash; n <= 32: a hash fits the seed
     field of the hash-sigs blocks *)
  Hypothesis n_range : (16 <= n <= 32)%nat.
  Hypothesis RFC : consts_rfc K = true.
  Hypothesis HS : consts_hashsigs K = true.

  Lemma H_len32 x : (length (H x) <= 32)%nat.
  Proof. rewrite H_len. apply n_range. Qed.

  (* the spec-level description of one level of the model *)
  Definition mk_level (p : param) (seed I : bytes) (q : N) (C : bytes) : level :=
    {| lv_lms_type := l_type (snd p); lv_h := N.of_nat (l_h (snd p));
       lv_ots_type := o_type (fst p); lv_w := o_w (fst p); lv_p := N.of_nat (o_p (fst p));
       lv_ls := o_ls (fst p);
       lv_I := I; lv_seed := seed; lv_q := q; lv_C := C |}.

  (* 5.3: u32str(type) || u32str(otstype) || I || T[1] *)
  Lemma tree_pk_layout p seed I :
    length I = 16%nat ->
    tree_pk K n H p seed I
    = lms_public_key (l_type (snd p)) (o_type (fst p)) I
        (T H I (fun q => alg1_public_key H I q (o_w (fst p)) (N.of_nat (o_p (fst p))) seed)
           (N.of_nat (l_h (snd p))) (l_h (snd p)) 1).
  Proof. intros LI. unfold tree_pk, lms_root. now rewrite (tree_rfc K n H H_len RFC). Qed.

  Lemma tree_pk_rfc p seed I q C :
    length I = 16%nat ->
    tree_pk K n H p seed I = level_pub H (mk_level p seed I q C).
  Proof.
    intros LI. rewrite tree_pk_layout by assumption. unfold level_pub, mk_level.
    cbn [lv_lms_type lv_ots_type lv_I lv_h]. now rewrite Nat2N.id.
  Qed.

  Lemma lms_sign_is_level_sig p seed I q C msg :
    dom_ok n (fst p) = true -> length I = 16%nat ->
    lms_sign_bytes K n H I seed (fst p) (snd p) q C msg = level_sig n H (mk_level p seed I q C) msg.
  Proof.
    apply (lms_sig_rfc K n H H_len RFC).
  Qed.

  (* the levels of the hash-sigs derivation along the leaf indices [q :: map snd below] *)
  Fixpoint hs_levels (seed I : bytes) (p : param) (q : N) (below : list (param * N)) : list level :=
    match below with
    | [] => [mk_level p seed I q (hs_randomizer H seed I q)]
    | (p', q') :: rest =>
      let (cseed, cI) := hs_child H seed I q in
      mk_level p seed I q (hs_randomizer H cseed cI q) :: hs_levels cseed cI p' q' rest
    end.

  Lemma level_pub_indep p seed I q C q' C' :
    level_pub H (mk_level p seed I q C) = level_pub H (mk_level p seed I q' C').
  Proof. reflexivity. Qed.

  Lemma hss_chain_cons l l' r msg :
    hss_chain n H (l :: l' :: r) msg
    = level_sig n H l (level_pub H l') ++ level_pub H l' ++ hss_chain n H (l' :: r) msg.
  Proof. reflexivity. Qed.

  (* 6.2 with a further level below; its public key is the same whatever leaf and randomizer it
     is given ([level_pub_indep]) *)
  Lemma hss_chain_levels l seed I p q below msg :
    hss_chain n H (l :: hs_levels seed I p q below) msg
    = level_sig n H l (level_pub H (mk_level p seed I 0 [])) ++ level_pub H (mk_level p seed I 0 [])
      ++ hss_chain n H (hs_levels seed I p q below) msg.
  Proof. destruct below as [|[p' q'] r]; reflexivity. Qed.

  (* what the hash-sigs lemmas ask of the seed and identifier of a tree, and every tree of the
     derivation meets *)
  Definition seed_I_sized (seed I : bytes) : Prop := length I = 16%nat /\ (length seed <= 32)%nat.

  Lemma seed_I_sized_H x y : seed_I_sized (H x) (firstn (c_ilen K) (H y)).
  Proof. split; [rewrite firstn_length, (rfc_ilen (rfc_fields K RFC))|]; rewrite H_len; lia. Qed.

  Lemma root_seed_I_sized seed : seed_I_sized (fst (root_seed_I K H seed)) (snd (root_seed_I K H seed)).
  Proof. apply seed_I_sized_H. Qed.

  Lemma expand_rfc below seed I p q spks bottom :
    seed_I_sized seed I ->
    expand K n H seed I p q below = (spks, bottom) ->
    forall msg, dom_ok n (fst p) = true -> Forall (fun pq => dom_ok n (fst (fst pq)) = true) below ->
      concat spks ++ bottom_sig K n H bottom msg = hss_chain n H (hs_levels seed I p q below) msg.
  Proof.
    revert below seed I p q spks bottom. refine (expand_ind K n H seed_I_sized _ _ _ _).
    - intros seed I q _. apply seed_I_sized_H.
    - intros seed I p q [LI Ls] msg OK _. cbn [concat app hs_levels hss_chain bottom_sig].
      rewrite (randomizer_hs K H HS H_len32) by assumption. now apply lms_sign_is_level_sig.
    - intros seed I p q p' q' rest cs cI spks bottom [LI Ls] [LcI Lcs] EC IH msg OK F.
      inversion F as [|? ? OK' F'].
      cbn [hs_levels]. rewrite <- (child_seed_I_hs K H HS H_len32), EC by assumption.
      rewrite hss_chain_levels, <- (IH msg OK' F').
      rewrite <- (randomizer_hs K H HS H_len32), <- (tree_pk_rfc p' cs cI 0 []), <- lms_sign_is_level_sig by assumption.
      cbn [concat]. now rewrite <- !app_assoc.
  Qed.

  Lemma hs_levels_length seed I p q below : length (hs_levels seed I p q below) = S (length below).
  Proof.
    revert seed I p q; induction below as [|[p' q'] r IH]; intros seed I p q; cbn [hs_levels length]; [reflexivity|].
    destruct (hs_child H seed I q). cbn [length]. now rewrite IH.
  Qed.

  (* C07: the released signature is the RFC 8554 HSS signature over the hash-sigs derivation *)
  Theorem hss_signature_is_rfc ps seed c msg sig :
    Forall (fun p => dom_ok n (fst p) = true) ps -> (length seed <= 32)%nat ->
    hss_signature K n H ps seed c msg = Ok sig ->
    match combine ps (leaf_digits (heights_of ps) c) with
    | [] => False
    | (p0, q0) :: below =>
      let (s0, I0) := hs_root H seed in
      sig = hss_signature_rfc n H (hs_levels s0 I0 p0 q0 below) msg
    end.
  Proof.
    intros F Ls (p0 & q0 & below & EC & ->)%hss_signature_Ok.
    assert (FC : Forall (fun pq : param * N => dom_ok n (fst (fst pq)) = true) ((p0, q0) :: below)).
    { rewrite <- EC. apply Forall_forall. intros [p q] Hin%in_combine_l. rewrite Forall_forall in F. now apply F. }
    rewrite EC. inversion FC as [|? ? OK0 FB]; subst.
    pose proof (root_seed_I_sized seed) as T0. rewrite (root_seed_I_hs K H HS H_len32) in * by assumption.
    destruct (hs_root H seed) as [s0 I0]. unfold hss_signature_rfc, u32str.
    rewrite hs_levels_length, Nat.sub_succ, Nat.sub_0_r. f_equal.
    exact (expand_rfc below s0 I0 p0 q0 _ _ T0 (surjective_pairing _) msg OK0 FB).
  Qed.

  (* C08: the public key is u32str(L) || LMS public key of the root tree of the hash-sigs derivation *)
  Theorem hss_public_key_layout ps seed pk :
    (length seed <= 32)%nat ->
    hss_public_key K n H ps seed = Ok pk ->
    match ps with
    | [] => False
    | p0 :: _ =>
      let (s0, I0) := hs_root H seed in
      pk = u32str (N.of_nat (length ps))
             ++ lms_public_key (l_type (snd p0)) (o_type (fst p0)) I0
                  (T H I0 (fun q => alg1_public_key H I0 q (o_w (fst p0)) (N.of_nat (o_p (fst p0))) s0)
                     (N.of_nat (l_h (snd p0))) (l_h (snd p0)) 1)
    end.
  Proof.
    intros Ls (p0 & r & -> & ->)%hss_public_key_Ok.
    destruct (root_seed_I_sized seed) as [LI0 _]. rewrite (root_seed_I_hs K H HS H_len32) in * by assumption.
    destruct (hs_root H seed) as [s0 I0]. unfold u32str. f_equal. now apply tree_pk_layout.
  Qed.

  (* the same in the vocabulary of Spec/HssSpec.v *)
  Theorem hss_public_key_is_rfc ps seed pk :
    (length seed <= 32)%nat ->
    hss_public_key K n H ps seed = Ok pk ->
    match ps with
    | [] => False
    | p0 :: _ =>
      let (s0, I0) := hs_root H seed in
      pk = u32str (N.of_nat (length ps)) ++ level_pub H (mk_level p0 s0 I0 0 [])
    end.
  Proof.
    intros Ls E. pose proof (hss_public_key_layout ps seed pk Ls E) as P.
    destruct ps as [|p0 r]; [exact P|].
    unfold level_pub, mk_level. cbn [lv_lms_type lv_ots_type lv_I lv_h]. rewrite Nat2N.id. exact P.
  Qed.
End HssRfc.
