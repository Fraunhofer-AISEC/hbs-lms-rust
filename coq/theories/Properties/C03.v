(* C03 -- no one-time key ever signs two different contents, over any signing history.
   Proofs in Proofs/HistoryProofs.v (histories), Proofs/NoReuse.v (signed public keys) and
   Proofs/CounterProofs.v (leaf tuples); [C03_no_one_time_key_reuse] puts them together here.
   A history is any list of operations (byte-level sign with an accepting or rejecting callback,
   in-memory signing key, reload, lifetime query), always continued from the persisted key. *)
From HbsLms Require Import Base.Bytes Model.Consts Model.Counter Model.KeyBlob Model.Codec Model.Hss
     Model.History.
From HbsLms Require Import Proofs.CounterProofs Proofs.KeyBlobProofs
    Proofs.HistoryProofs Proofs.NoReuse Gen.Generated.
(* the obligation [model_ok] on K_src is discharged once, in C01 *)
From HbsLms Require Properties.C01.

Local Open Scope N_scope.

Definition hash_sizes : list nat := [16%nat; 24%nat; 32%nat].

(* a freshly generated key: constructible parameters within the build limits, n-byte seed,
   total height at most 63 *)
Record generated (n : nat) (ps : list param) (seed pb : bytes) : Prop := {
  g_params : Forall (fun p => In p (tbl_params K_src n)) ps;
  g_seed : length seed = n;
  g_bytes : params_to_bytes K_src ps = Ok pb;
  g_nonempty : ps <> [];
  g_height : sumN (heights_of ps) <= 63;
}.

(* every counter of a key of total height at most 63 fits the 8-byte counter field *)
Lemma fits ps : sumN (heights_of ps) <= 63 -> 2 ^ sumN (heights_of ps) <= 256 ^ N.of_nat (c_used_leafs_size K_src).
Proof.
  intros Hh. change (256 ^ N.of_nat (c_used_leafs_size K_src)) with (2 ^ 64).
  apply N.pow_le_mono_r; lia.
Qed.

(* Every history from a fresh key: the released signatures are, in order, the signatures for the
   counters 0, 1, 2, ...; the persisted key afterwards is the fresh key with the counter set to
   the number of released signatures (or the wiped key once all leaves are used); rejected and
   failed attempts, reloads and queries change nothing. *)
Theorem C03_history :
  forall (n : nat) (H : bytes -> bytes) (ps : list param) (seed pb : bytes) (ops : list op),
    In n hash_sizes -> (forall x, length (H x) = n) -> generated n ps seed pb ->
    exists msgs : list bytes,
      run K_src n H ops (blob_at K_src n ps seed pb 0)
      = (blob_at K_src n ps seed pb (N.of_nat (length msgs)),
         map (fun im => sig_at K_src n H ps seed (N.of_nat (fst im)) (snd im))
             (combine (seq 0 (length msgs)) msgs))
      /\ N.of_nat (length msgs) <= total ps.
Proof.
  intros n H ps seed pb ops Hn HL [G1 G2 G3 G4 G5].
  exact (run_fresh K_src n (C01.model_ok_n n Hn) H HL ps seed pb G1 G2 G3 G4 G5 (fits ps G5) ops).
Qed.

(* consecutive persisted keys differ only by the counter increasing by exactly one *)
Theorem C03_consecutive_keys :
  forall (n : nat) (ps : list param) (seed pb : bytes) (j : N),
    j + 1 < total ps ->
    blob_at K_src n ps seed pb j = be (c_used_leafs_size K_src) j ++ pb ++ seed
    /\ blob_at K_src n ps seed pb (j + 1) = be (c_used_leafs_size K_src) (j + 1) ++ pb ++ seed.
Proof.
  intros n ps seed pb j Hj. unfold blob_at.
  destruct (N.ltb_spec j (total ps)); [|lia]. destruct (N.ltb_spec (j + 1) (total ps)); [|lia].
  split; reflexivity.
Qed.

(* the leaf indices inside the signature for counter j are the mixed-radix digits of j
   (per-level tree sizes as radices, bottom level least significant: C13_mixed_radix) *)
Theorem C03_leaf_indices :
  forall (n : nat) (H : bytes -> bytes) (ps : list param) (seed pb msg : bytes) (j : N),
    In n hash_sizes -> (forall x, length (H x) = n) -> generated n ps seed pb ->
    exists s,
      parse_hss_sig K_src n (sig_at K_src n H ps seed j msg) = Ok s
      /\ map (fun sp => s_q (fst sp)) (h_spks s) ++ [s_q (h_sig s)] = leaf_digits (heights_of ps) j.
Proof.
  intros n H ps seed pb msg j Hn HL [G1 G2 G3 G4 G5].
  exact (proj2 (sig_at_spec K_src n (C01.model_ok_n n Hn) H HL ps seed pb G1 G3 G4 j msg)).
Qed.

(* two different counters below the capacity never select the same bottom-level one-time key:
   their leaf tuples differ *)
Theorem C03_distinct_counters_distinct_leaf_tuples :
  forall (hs : list N) (c1 c2 : N),
    c1 < 2 ^ sumN hs -> c2 < 2 ^ sumN hs -> c1 <> c2 -> leaf_digits hs c1 <> leaf_digits hs c2.
Proof.
  intros hs c1 c2 H1 H2 Hne E. exact (Hne (leaf_digits_inj hs c1 c2 H1 H2 E)).
Qed.

(* an upper-level one-time key is addressed by the leaf indices q_0 .. q_l of the levels down to
   it; whenever two signatures use the same address, that key signed the same content: the
   signed public keys (LMS signature and child public key) of the levels 0 .. l are identical *)
Theorem C03_same_one_time_key_same_content :
  forall (K : consts) (n : nat) (H : bytes -> bytes) (m : nat)
         (below1 below2 : list (param * N)) (seed I : bytes) (p : param) (q : N),
    map fst below1 = map fst below2 ->
    firstn m (map snd below1) = firstn m (map snd below2) ->
    firstn (S m) (fst (expand K n H seed I p q below1))
    = firstn (S m) (fst (expand K n H seed I p q below2)).
Proof. apply expand_prefix. Qed.

(* End to end, over every history from a fresh key: the i-th and the j-th released signature
   (i <> j) carry different leaf-index tuples, so the bottom one-time key (addressed by the
   whole tuple) is never used twice; each signature is the level count, its signed public keys
   and the bottom LMS signature; and whenever the two tuples agree on the levels 0 .. m, the
   signed public keys of the levels 0 .. m are byte-identical: the one-time key of level m at
   that address signed one content only (the same child public key, with the same randomizer). *)
Theorem C03_no_one_time_key_reuse :
  forall (n : nat) (H : bytes -> bytes) (ps : list param) (seed pb : bytes) (ops : list op),
    In n hash_sizes -> (forall x, length (H x) = n) -> generated n ps seed pb ->
    exists msgs : list bytes,
      snd (run K_src n H ops (blob_at K_src n ps seed pb 0))
      = map (fun im => sig_at K_src n H ps seed (N.of_nat (fst im)) (snd im))
            (combine (seq 0 (length msgs)) msgs)
      /\ (forall (c : N) (msg : bytes), exists tail,
             sig_at K_src n H ps seed c msg
             = be 4 (N.of_nat (length ps - 1)) ++ concat (signed_pks K_src n H ps seed c) ++ tail)
      /\ forall i j : nat, (i < length msgs)%nat -> (j < length msgs)%nat -> i <> j ->
           leaf_digits (heights_of ps) (N.of_nat i) <> leaf_digits (heights_of ps) (N.of_nat j)
           /\ forall m : nat,
               firstn (S m) (leaf_digits (heights_of ps) (N.of_nat i))
               = firstn (S m) (leaf_digits (heights_of ps) (N.of_nat j)) ->
               firstn (S m) (signed_pks K_src n H ps seed (N.of_nat i))
               = firstn (S m) (signed_pks K_src n H ps seed (N.of_nat j)).
Proof.
  intros n H ps seed pb ops Hn HL G.
  destruct (C03_history n H ps seed pb ops Hn HL G) as [msgs [E Hle]]. destruct G as [G1 G2 G3 G4 G5].
  exists msgs. split; [now rewrite E|]. split.
  - intros c msg. eapply signature_layout, (sig_exists K_src n (C01.model_ok_n n Hn) H HL); eassumption.
  - split; [|apply signed_pks_prefix].
    apply C03_distinct_counters_distinct_leaf_tuples; unfold total in Hle; lia.
Qed.

Print Assumptions C03_history.
Print Assumptions C03_consecutive_keys.
Print Assumptions C03_leaf_indices.
Print Assumptions C03_distinct_counters_distinct_leaf_tuples.
Print Assumptions C03_same_one_time_key_same_content.
Print Assumptions C03_no_one_time_key_reuse.
