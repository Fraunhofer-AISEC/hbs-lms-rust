(* C07 -- signatures are byte-exact RFC 8554 HSS signatures for the current counter.
   The theorems of Proofs/RfcCore.v, HashSigsProofs.v, HssRfc.v, Lengths.v and RfcVerifyEquiv.v at the
   constants of the current source; their side conditions on these constants come from
   Proofs/SourceRfc.v and from the computations below.
   The right-hand sides are Spec/Rfc8554.v + Spec/HssSpec.v (written from the RFC text) over the
   per-level secrets of Spec/HashSigs.v; the spec is validated by the RFC's Appendix F vectors
   (Spec/RfcKat.v). *)
From HbsLms Require Import Base.Bytes Model.Consts Model.Lmots Model.Counter
     Model.KeyBlob Model.Hss Model.SignCore.
From HbsLms Require Import Spec.Rfc8554 Spec.HashSigs Spec.HssSpec Spec.RfcKat.
From HbsLms Require Import Proofs.WinternitzDom Proofs.RfcCore Proofs.HashSigsProofs Proofs.HssRfc
     Proofs.KeyBlobProofs Proofs.SignCoreProofs Proofs.SignProofs Proofs.RfcVerifyEquiv Proofs.SourceRfc
     Proofs.Lengths Gen.Generated.
From HbsLms Require Properties.C01 Model.HashInputs.

Local Open Scope N_scope.

Definition hash_sizes : list nat := [16%nat; 24%nat; 32%nat].

(* obligations on the constants of the current source, decided by computation *)
Lemma source_consts_hashsigs : consts_hashsigs K_src = true.
Proof. vm_compute. reflexivity. Qed.

(* KNOWN FINDING (known_findings.json, C07 lmots-ls-...): rows whose checksum shift is not the
   Appendix-B value: (n, w, ls used) *)
Definition known_dev_b (n : nat) (prm : otsp) : bool :=
  existsb (fun t => match t with (n', w', ls') =>
             Nat.eqb n n' && (o_w prm =? w') && (o_ls prm =? ls') end)
          [(16%nat, 1, 7); (16%nat, 2, 6); (24%nat, 1, 7)].

Lemma source_rows_ok :
  forallb (fun n => forallb (fun p => dom_ok n (fst p) || known_dev_b n (fst p)) (tbl_params K_src n))
          hash_sizes = true.
Proof. vm_compute. reflexivity. Qed.

Lemma row_ok n p :
  In n hash_sizes -> In p (tbl_params K_src n) -> known_dev_b n (fst p) = false -> dom_ok n (fst p) = true.
Proof.
  intros Hn Hp Hk. pose proof source_rows_ok as S. rewrite forallb_forall in S. specialize (S n Hn).
  rewrite forallb_forall in S. specialize (S p Hp). rewrite Hk, orb_false_r in S. exact S.
Qed.

Lemma n_range n : In n hash_sizes -> (16 <= n <= 32)%nat.
Proof. intros [<-|[<-|[<-|[]]]]; lia. Qed.

(* LM-OTS: Algorithm 1 (public key), Algorithm 3 (signature), Appendix A (private key elements) *)
Theorem C07_lmots_public_key_is_alg1 :
  forall (n : nat) (H : bytes -> bytes) (I : bytes) (q : N) (seed : bytes) (prm : otsp),
    (forall x, length (H x) = n) -> length I = 16%nat ->
    ots_pub K_src n H I q seed prm = alg1_public_key H I q (o_w prm) (N.of_nat (o_p prm)) seed.
Proof. intros n H I q seed prm HL. exact (ots_pub_rfc K_src n H HL source_consts_rfc I q seed prm). Qed.

Theorem C07_lmots_signature_is_alg3 :
  forall (n : nat) (H : bytes -> bytes) (I : bytes) (q : N) (seed : bytes) (p : param) (C msg : bytes),
    In n hash_sizes -> (forall x, length (H x) = n) -> In p (tbl_params K_src n) ->
    known_dev_b n (fst p) = false -> length I = 16%nat ->
    ots_sig_bytes (fst p) C (ots_sign_ys K_src n H I q seed (fst p) C msg)
    = alg3_signature n H (o_type (fst p)) I q (o_w (fst p)) (N.of_nat (o_p (fst p))) (o_ls (fst p)) seed C msg.
Proof.
  intros n H I q seed p C msg Hn HL Hp Hk LI.
  exact (ots_sig_rfc K_src n H HL source_consts_rfc I q seed (fst p) C msg (row_ok n p Hn Hp Hk) LI).
Qed.

(* HSS: the signature for counter c is  u32str(L-1) || (LMS signature of the next level's public key
   || that public key) for every upper level || LMS signature of the message,  each LMS signature
   being 5.4.1 with Algorithm 3 and Appendix-B parameters, at the leaf selected by the counter,
   with the seed-derived randomizer *)
Theorem C07_signature_is_rfc8554 :
  forall (n : nat) (H : bytes -> bytes) (ps : list param) (seed : bytes) (c : N) (msg sig : bytes),
    In n hash_sizes -> (forall x, length (H x) = n) ->
    Forall (fun p => In p (tbl_params K_src n) /\ known_dev_b n (fst p) = false) ps ->
    (length seed <= 32)%nat ->
    hss_signature K_src n H ps seed c msg = Ok sig ->
    match combine ps (leaf_digits (heights_of ps) c) with
    | [] => False
    | (p0, q0) :: below =>
      let (s0, I0) := hs_root H seed in
      sig = hss_signature_rfc n H (hs_levels H s0 I0 p0 q0 below) msg
    end.
Proof.
  intros n H ps seed c msg sig Hn HL F Ls E.
  apply (hss_signature_is_rfc K_src n H HL (n_range n Hn) source_consts_rfc source_consts_hashsigs ps seed c msg sig);
    try assumption.
  eapply Forall_impl; [|exact F]. intros p [A B]. now apply row_ok.
Qed.

(* what the signing entry point returns is that signature *)
Theorem C07_sign_core_releases_it :
  forall (n : nat) (H : bytes -> bytes) (blob msg : bytes) (cb : bytes -> bool) (sig : bytes) (calls : list (bytes * bool)),
    sign_core K_src n H blob msg cb = (Ok sig, calls) ->
    exists k ps, blob_parse K_src n blob = Ok k /\ params_of_bytes K_src n (k_params k) = Ok ps
                 /\ hss_signature K_src n H ps (k_seed k) (k_counter k) msg = Ok sig.
Proof.
  intros n H blob msg cb sig calls E. apply sign_core_Ok in E as (next & EP & _).
  apply sign_prepare_Ok in EP as (k & ps & EL & ES & _). apply load_key_Ok in EL as [EB EPb]. now exists k, ps.
Qed.

(* "An independent implementation of RFC 8554 verification therefore accepts every released
   signature": the transcription of RFC 8554 section 6.3 (Spec/Rfc8554.v), run with the parameter
   rows of the current source, returns VALID on whatever key generation and the signing entry
   point hand out, at every counter value.  (C02 shows which of those rows are the RFC's.) *)
Theorem C07_rfc_verifier_accepts_released_signatures :
  forall (n : nat) (H : bytes -> bytes),
    In n hash_sizes -> (forall x, length (H x) = n) ->
    forall (ps : list param) (seed sk pk : bytes) (c : N) (msg : bytes)
           (cb : bytes -> bool) (sig : bytes) (calls : list (bytes * bool)),
      Forall (fun p => In p (tbl_params K_src n)) ps -> length seed = n ->
      keygen K_src n H ps seed = Ok (sk, pk) ->
      c < 256 ^ N.of_nat (c_used_leafs_size K_src) ->
      sign_core K_src n H (with_counter K_src sk c) msg cb = (Ok sig, calls) ->
      hss_verify_rfc n H (ots_tbl_of K_src n) (lms_tbl_of K_src)
                     (N.of_nat (c_max_levels K_src)) msg sig pk = true.
Proof.
  intros n H Hn HL ps seed sk pk c msg cb sig calls F Ls KG Hc SG.
  apply (hss_verify_iff_rfc K_src n H HL source_consts_rfc (tables_ok_n n Hn) msg sig pk).
  exact (C01.C01_released_signature_verifies n H Hn HL ps seed sk pk c msg cb sig calls F Ls KG Hc SG).
Qed.

(* "every length equals the RFC formula": an LM-OTS signature has 4 + n (p + 1) bytes, an LMS
   signature 12 + n (p + 1) + n h, an LMS public key 24 + n; the released HSS signature is
   4 + sum over the upper levels (LMS signature + LMS public key) + the bottom LMS signature, the
   HSS public key 4 + 24 + n -- for every hash with n-byte output, parameter list, seed, counter
   and message *)
Theorem C07_lengths_are_rfc :
  forall (n : nat) (H : bytes -> bytes) (ps : list param) (seed : bytes) (c : N) (msg sig pk : bytes),
    In n hash_sizes -> (forall x, length (H x) = n) ->
    hss_signature K_src n H ps seed c msg = Ok sig -> hss_public_key K_src n H ps seed = Ok pk ->
    length sig = (4 + sumnat (map (fun p => (12 + n * (o_p (fst p) + 1) + n * l_h (snd p)) + (24 + n))%nat (removelast ps))
                  + (12 + n * (o_p (fst (last ps (hd ({| o_type := 0; o_w := 0; o_p := 0; o_ls := 0 |}, {| l_type := 0; l_h := 0 |}) ps))) + 1)
                     + n * l_h (snd (last ps (hd ({| o_type := 0; o_w := 0; o_p := 0; o_ls := 0 |}, {| l_type := 0; l_h := 0 |}) ps)))))%nat
    /\ length pk = (4 + (24 + n))%nat.
Proof.
  intros n H ps seed c msg sig pk Hn HL ES EP.
  assert (IL : (c_ilen K_src <= n)%nat) by (pose proof (n_range n Hn); cbn; lia).
  split.
  - exact (hss_signature_length K_src n H HL IL ps seed c msg sig ES).
  - exact (hss_public_key_length K_src n H HL IL ps seed pk EP).
Qed.

(* the RFC's own test vectors: accepted by the independent transcription and by the model *)
Theorem C07_rfc_vectors :
  rfc_verify rfc_testcase1_message rfc_testcase1_signature rfc_testcase1_public_key = true
  /\ rfc_verify rfc_testcase2_message rfc_testcase2_signature rfc_testcase2_public_key = true
  /\ hss_verify K_src 32 sha rfc_testcase1_message rfc_testcase1_signature rfc_testcase1_public_key = Ok tt
  /\ hss_verify K_src 32 sha rfc_testcase2_message rfc_testcase2_signature rfc_testcase2_public_key = Ok tt.
Proof. split; [exact kat1_spec|split; [exact kat2_spec|split; [exact kat1_model|exact kat2_model]]]. Qed.

(* the hash preimage layouts of the current source (translator: ordered .chain / .update arguments
   per function) are the layouts the model writes down (Model/HashInputs.v) *)
Theorem C07_hash_input_layouts : src_hash_inputs = HashInputs.model_hash_inputs.
Proof. reflexivity. Qed.

Print Assumptions C07_hash_input_layouts.
Print Assumptions C07_lmots_public_key_is_alg1.
Print Assumptions C07_lmots_signature_is_alg3.
Print Assumptions C07_signature_is_rfc8554.
Print Assumptions C07_sign_core_releases_it.
Print Assumptions C07_lengths_are_rfc.
Print Assumptions C07_rfc_verifier_accepts_released_signatures.
