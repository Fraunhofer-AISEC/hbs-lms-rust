(* C10: the auxiliary cache is transparent.  Core: going through a cache whose non-empty slots
   hold true node values returns the true node and keeps the cache in that state
   ([tree_aux_correct]).  A cleared cache is such a cache; with such a cache, or none, key
   generation returns the key pair it returns without a buffer ([keygen_aux_same]). *)
From HbsLms Require Import Base.Bytes Model.Consts Model.Lmots Model.Lms Model.Derive Model.KeyBlob
     Model.Hss Model.Aux.
From HbsLms Require Import Proofs.KeyBlobProofs.

Local Open Scope N_scope.

(* [blit buf off d] overwrites the window [off, off + length d) of [buf] and nothing else *)
Lemma blit_length (buf : bytes) off (d : bytes) :
  (off + length d <= length buf)%nat -> length (blit buf off d) = length buf.
Proof. intros L. unfold blit. rewrite !app_length, firstn_length, skipn_length. lia. Qed.

Lemma firstn_blit (buf : bytes) off (d : bytes) k :
  (k <= off <= length buf)%nat -> firstn k (blit buf off d) = firstn k buf.
Proof.
  intros L. unfold blit. rewrite firstn_app, firstn_firstn, firstn_length.
  replace (k - Nat.min off (length buf))%nat with 0%nat by lia.
  rewrite Nat.min_l by lia. apply app_nil_r.
Qed.

Lemma skipn_blit (buf : bytes) off (d : bytes) k :
  (off + length d <= k)%nat -> (off <= length buf)%nat -> skipn k (blit buf off d) = skipn k buf.
Proof.
  intros Hk L. unfold blit. rewrite app_assoc, skipn_app, skipn_all2, app_length, firstn_length, Nat.min_l
    by (rewrite ?app_length, ?firstn_length; lia).
  cbn [app]. rewrite skipn_skipn. f_equal. lia.
Qed.

Lemma firstn_skipn_blit (buf : bytes) off (d : bytes) :
  (off <= length buf)%nat -> firstn (length d) (skipn off (blit buf off d)) = d.
Proof.
  intros L. unfold blit. rewrite skipn_app, skipn_all2, firstn_length, Nat.min_l, Nat.sub_diag
    by (rewrite ?firstn_length; lia).
  cbn [app skipn]. rewrite firstn_app, Nat.sub_diag, firstn_all. apply app_nil_r.
Qed.

(* a layer is an array of slots of [n] bytes *)
Definition slot_get (n : nat) (data : bytes) (k : nat) : bytes := firstn n (skipn (k * n) data).
Definition slot_set (n : nat) (data : bytes) (k : nat) (v : bytes) : bytes := blit data (k * n) v.

Section Slots.
  Variables (n : nat) (data : bytes) (k : nat) (v : bytes).
  Hypothesis Fit : (k * n + n <= length data)%nat.
  Hypothesis Lv : length v = n.

  Lemma slot_set_length : length (slot_set n data k v) = length data.
  Proof. apply blit_length. lia. Qed.

  Lemma slot_get_set_same : slot_get n (slot_set n data k v) k = v.
  Proof. unfold slot_get. rewrite <- Lv at 1. apply firstn_skipn_blit. lia. Qed.

  Lemma slot_get_set_other k' : k' <> k -> slot_get n (slot_set n data k v) k' = slot_get n data k'.
  Proof.
    intros Hne. unfold slot_get, slot_set. destruct (Nat.lt_ge_cases k' k).
    - rewrite !firstn_skipn_comm, firstn_blit by nia. reflexivity.
    - rewrite skipn_blit by nia. reflexivity.
  Qed.
End Slots.

Lemma find_map_fst {B C} (g : nat * B -> nat * C) lv (ls : list (nat * B)) :
  (forall l, fst (g l) = fst l) ->
  find (fun l => Nat.eqb (fst l) lv) (map g ls) = option_map g (find (fun l => Nat.eqb (fst l) lv) ls).
Proof.
  intros Hg. induction ls as [|l ls IH]; cbn [map find]; [reflexivity|].
  rewrite Hg. destruct (Nat.eqb (fst l) lv); [reflexivity|exact IH].
Qed.

Section Cache.
  Variable K : consts.
  Variable n : nat.
  Variable H : bytes -> bytes.
  Hypothesis H_len : forall x, length (H x) = n.

  (* at most one layer per tree level; the layer of level i holds the 2^i nodes of that level *)
  Definition wf_exp (e : expanded) : Prop :=
    NoDup (map fst (ax_layers e))
    /\ Forall (fun l : nat * bytes => length (snd l) = (2 ^ fst l * n)%nat) (ax_layers e).

  Definition slot_index (r : N) : nat := N.to_nat (r - 2 ^ N.log2 r).

  Lemma slot_index_lt r : 1 <= r -> (slot_index r < 2 ^ node_level r)%nat.
  Proof.
    intros Hr. unfold slot_index, node_level.
    destruct (N.log2_spec r ltac:(lia)) as [Hlo Hhi]. rewrite N.pow_succ_r' in Hhi.
    lia.
  Qed.

  Lemma slot_index_inj r r' :
    1 <= r -> 1 <= r' -> node_level r = node_level r' -> slot_index r = slot_index r' -> r = r'.
  Proof.
    unfold node_level, slot_index. intros Hr Hr' El Es.
    assert (E : N.log2 r = N.log2 r') by lia. rewrite E in Es.
    destruct (N.log2_spec r ltac:(lia)) as [Hlo _]. destruct (N.log2_spec r' ltac:(lia)) as [Hlo' _].
    rewrite E in Hlo. lia.
  Qed.

  Lemma extract_spec e r :
    extract_aux n e r =
    match find (fun l => Nat.eqb (fst l) (node_level r)) (ax_layers e) with
    | None => None
    | Some (_, data) => let s := slot_get n data (slot_index r) in if all_zero s then None else Some s
    end.
  Proof. reflexivity. Qed.

  Lemma save_spec e r v :
    save_aux n e r v =
    {| ax_level := ax_level e;
       ax_layers := map (fun l => if Nat.eqb (fst l) (node_level r)
                                  then (fst l, slot_set n (snd l) (slot_index r) v) else l) (ax_layers e);
       ax_hmac := ax_hmac e |}.
  Proof. reflexivity. Qed.

  Lemma slot_fits e r data :
    1 <= r -> wf_exp e -> In (node_level r, data) (ax_layers e) ->
    (slot_index r * n + n <= length data)%nat.
  Proof.
    intros Hr [_ F] Hin. rewrite Forall_forall in F. apply F in Hin. cbn [fst snd] in Hin.
    pose proof (slot_index_lt r Hr). nia.
  Qed.

  Lemma save_wf e r v : 1 <= r -> length v = n -> wf_exp e -> wf_exp (save_aux n e r v).
  Proof.
    intros Hr Lv W. pose proof W as [ND F]. rewrite save_spec. split; cbn [ax_layers].
    - rewrite map_map. erewrite map_ext; [exact ND|]. intros [i d]. cbn [fst]. destruct (Nat.eqb i (node_level r)); reflexivity.
    - apply Forall_map, Forall_forall. intros [i d] Hin. rewrite Forall_forall in F. specialize (F _ Hin). cbn [fst snd] in *.
      destruct (Nat.eqb_spec i (node_level r)) as [->|]; cbn [fst snd]; [|exact F].
      rewrite slot_set_length; [exact F|exact (slot_fits e r d Hr W Hin)|exact Lv].
  Qed.

  (* reading after a write: the written node reads as [v], every other node as before *)
  Lemma extract_save e r v r' :
    1 <= r -> 1 <= r' -> length v = n -> wf_exp e ->
    extract_aux n (save_aux n e r v) r' =
    match find (fun l => Nat.eqb (fst l) (node_level r')) (ax_layers e) with
    | None => None
    | Some (_, data) =>
      let s := if r' =? r then v else slot_get n data (slot_index r') in
      if all_zero s then None else Some s
    end.
  Proof.
    intros Hr Hr' Lv W. rewrite extract_spec, save_spec. cbn [ax_layers].
    rewrite find_map_fst by (intros [i d]; cbn [fst]; destruct (Nat.eqb i _); reflexivity).
    destruct (find _ (ax_layers e)) as [[i d]|] eqn:E; [|reflexivity].
    apply find_some in E. destruct E as [Hin E]. apply Nat.eqb_eq in E. cbn [option_map fst snd] in *. subst i.
    destruct (Nat.eqb_spec (node_level r') (node_level r)) as [El|Hl].
    - (* [d] is the layer written to *)
      rewrite El in Hin. pose proof (slot_fits e r d Hr W Hin) as Fit.
      destruct (N.eqb_spec r' r) as [->|Hne].
      + now rewrite slot_get_set_same.
      + rewrite slot_get_set_other; [reflexivity|assumption..|].
        intros Es. apply Hne. now apply slot_index_inj.
    - destruct (N.eqb_spec r' r) as [->|]; [contradiction|reflexivity].
  Qed.

  Variable h : nat.
  Variables (I seed : bytes) (prm : otsp).

  Local Notation TT := (tree K n H h I seed prm).

  (* every non-empty slot holds the true node.  [d] counts the tree levels below node [r] (a leaf
     has d = 0, the root d = h), which is how [tree] addresses a node: [node_level r + d = h] *)
  Definition cache_ok (e : expanded) : Prop :=
    forall r d v, 1 <= r -> (node_level r + d = h)%nat -> extract_aux n e r = Some v -> v = TT d r.

  Lemma tree_length' d r : length (TT d r) = n.
  Proof. destruct d; cbn [tree]; apply H_len. Qed.

  Lemma level_double r : 1 <= r -> node_level (2 * r) = S (node_level r) /\ node_level (2 * r + 1) = S (node_level r).
  Proof.
    intros Hr. unfold node_level. rewrite N.log2_double by lia.
    rewrite N.log2_succ_double by lia. lia.
  Qed.

  Lemma save_good e r d :
    1 <= r -> (node_level r + d = h)%nat -> wf_exp e -> cache_ok e ->
    wf_exp (save_aux n e r (TT d r)) /\ cache_ok (save_aux n e r (TT d r)).
  Proof.
    intros Hr Hl W C. pose proof (tree_length' d r) as Lv. split; [now apply save_wf|].
    intros r' d' v' Hr' Hl' EX. rewrite extract_save in EX by assumption.
    destruct (N.eqb_spec r' r) as [->|Hne]; [|exact (C r' d' v' Hr' Hl' EX)].
    destruct (find _ _) as [[_ _]|]; [|discriminate]. cbn zeta in EX.
    destruct (all_zero _); [discriminate|]. injection EX as <-. f_equal. lia.
  Qed.

  Theorem tree_aux_correct d :
    forall r e,
      1 <= r -> (node_level r + d = h)%nat -> wf_exp e -> cache_ok e ->
      fst (tree_aux K n H h I seed prm d r e) = TT d r
      /\ wf_exp (snd (tree_aux K n H h I seed prm d r e))
      /\ cache_ok (snd (tree_aux K n H h I seed prm d r e)).
  Proof.
    induction d as [|d IH]; intros r e Hr Hl W C; cbn [tree_aux];
      destruct (extract_aux n e r) as [v|] eqn:EX.
    1, 3: (* a cached node *) split; [exact (C r _ v Hr Hl EX)|split; assumption].
    - split; [reflexivity|]. exact (save_good e r 0 Hr Hl W C).
    - destruct (level_double r Hr) as [L1 L2].
      destruct (IH (2 * r) e ltac:(lia) ltac:(lia) W C) as [V1 [W1 C1]].
      destruct (tree_aux K n H h I seed prm d (2 * r) e) as [l e1].
      destruct (IH (2 * r + 1) e1 ltac:(lia) ltac:(lia) W1 C1) as [V2 [W2 C2]].
      destruct (tree_aux K n H h I seed prm d (2 * r + 1) e1) as [rt e2]. cbn [fst snd] in *.
      subst l rt. split; [reflexivity|]. exact (save_good e2 r (S d) Hr Hl W2 C2).
  Qed.
End Cache.

Lemma map_fst_select {B} (b : nat -> bool) (w : nat -> B) (l : list nat) :
  map fst (flat_map (fun i => if b i then [(i, w i)] else []) l) = filter b l.
Proof.
  induction l as [|i l IH]; cbn [flat_map filter]; [reflexivity|].
  destruct (b i); cbn [app map fst]; now rewrite IH.
Qed.

Section Fresh.
  Variable K : consts.
  Variable n : nat.
  Variable H : bytes -> bytes.

  Lemma split_layers_zero sizes :
    forall m ls rest,
      split_layers sizes (repeat x00 m) = Ok (ls, rest) ->
      ls = map (fun s : nat * N => (fst s, repeat x00 (N.to_nat (snd s)))) sizes.
  Proof.
    induction sizes as [|[i sz] r IH]; intros m ls rest; cbn [split_layers].
    - intros [= <- _]. reflexivity.
    - rewrite repeat_length. destruct (N.ltb_spec (N.of_nat m) sz) as [|Hle]; [discriminate|].
      unfold read. rewrite repeat_length.
      replace (Nat.leb (N.to_nat sz) m) with true by (symmetry; apply Nat.leb_le; lia).
      rewrite firstn_repeat, skipn_repeat, Nat.min_l by lia.
      destruct (split_layers r (repeat x00 (m - N.to_nat sz))) as [[ls' rest']| |] eqn:E2; cbn [bind]; try discriminate.
      intros [= <- _]. cbn [map fst snd]. f_equal. exact (IH _ _ _ E2).
  Qed.

  Lemma layer_sizes_levels lvl :
    NoDup (map fst (layer_sizes K n lvl))
    /\ Forall (fun s : nat * N => N.to_nat (snd s) = (2 ^ fst s * n)%nat) (layer_sizes K n lvl).
  Proof.
    unfold layer_sizes. split.
    - rewrite map_fst_select. apply NoDup_filter, seq_NoDup.
    - apply Forall_flat_map, Forall_forall. intros i _.
      destruct (N.testbit lvl (N.of_nat i)); repeat constructor. cbn [fst snd]. lia.
  Qed.

  (* no slot of an all-zero layer claims anything *)
  Lemma zero_cache_good h (I seed : bytes) (prm : otsp) lvl hm :
    let e := {| ax_level := lvl;
                ax_layers := map (fun s : nat * N => (fst s, repeat x00 (N.to_nat (snd s)))) (layer_sizes K n lvl);
                ax_hmac := hm |} in
    wf_exp n e /\ cache_ok K n H h I seed prm e.
  Proof.
    intros e. destruct (layer_sizes_levels lvl) as [ND F]. split.
    - split; unfold e; cbn [ax_layers].
      + rewrite map_map. exact ND.
      + apply Forall_map. eapply Forall_impl; [|exact F]. intros s E. cbn [fst snd]. now rewrite repeat_length.
    - intros r d v _ _ EX. exfalso. rewrite extract_spec in EX. unfold e in EX. cbn [ax_layers] in EX.
      rewrite find_map_fst in EX by reflexivity.
      destruct (find _ _) as [[i sz]|]; [|discriminate]. cbn [option_map fst snd] in EX.
      unfold slot_get in EX. rewrite skipn_repeat, firstn_repeat, all_zero_repeat in EX. discriminate.
  Qed.
End Fresh.

Section KeygenAux.
  Variable K : consts.
  Variable n : nat.
  Variable H : bytes -> bytes.
  Hypothesis H_len : forall x, length (H x) = n.

  Definition good_view (h : nat) (I seed : bytes) (prm : otsp) (oe : option expanded) : Prop :=
    match oe with
    | None => True
    | Some e => wf_exp n e /\ cache_ok K n H h I seed prm e
    end.

  Theorem keygen_aux_same ps seed aux :
    (forall k p0 rest oe aux1,
        key_generate K ps seed = Ok k -> params_of_bytes K n (k_params k) = Ok (p0 :: rest) ->
        get_expanded K n H aux seed (l_h (snd p0)) = Ok (oe, aux1) ->
        good_view (l_h (snd p0)) (snd (root_seed_I K H seed)) (fst (root_seed_I K H seed)) (fst p0) oe) ->
    match keygen_aux K n H ps seed aux with
    | Ok (sk, pk, _) => keygen K n H ps seed = Ok (sk, pk)
    | Err => keygen K n H ps seed = Err
             \/ exists k p0 rest, key_generate K ps seed = Ok k /\ params_of_bytes K n (k_params k) = Ok (p0 :: rest)
                                  /\ get_expanded K n H aux seed (l_h (snd p0)) = Err
    | Panic => exists k p0 rest, key_generate K ps seed = Ok k /\ params_of_bytes K n (k_params k) = Ok (p0 :: rest)
                                 /\ get_expanded K n H aux seed (l_h (snd p0)) = Panic
    end.
  Proof.
    intros G. unfold keygen_aux, keygen.
    destruct (key_generate K ps seed) as [k| |] eqn:EK; cbn [bind];
      [|now left|now apply key_generate_total in EK].
    destruct (params_of_bytes K n (k_params k)) as [[|p0 rest]| |] eqn:EP; cbn [bind];
      [now apply params_of_bytes_Ok in EP| |now left|now apply params_of_bytes_total in EP].
    destruct (get_expanded K n H aux seed (l_h (snd p0))) as [[oe aux1]| |] eqn:EG;
      [|right; now exists k, p0, rest|now exists k, p0, rest].
    specialize (G k p0 rest oe aux1 eq_refl EP EG).
    unfold hss_public_key. destruct (root_seed_I K H seed) as [s0 I0]. cbn [fst snd bind] in *.
    (* both compute the same root: through a good cache, or directly *)
    destruct oe as [e|].
    - destruct G as [W C].
      destruct (tree_aux_correct K n H H_len (l_h (snd p0)) I0 s0 (fst p0) (l_h (snd p0)) 1 e
                  ltac:(lia) ltac:(reflexivity) W C) as [V _].
      destruct (tree_aux K n H (l_h (snd p0)) I0 s0 (fst p0) (l_h (snd p0)) 1 e) as [rt e'].
      cbn [fst] in V. subst rt.
      destruct (Nat.ltb _ (length (blob_of K k))); [now left|]. destruct (Nat.ltb _ _); [now left|reflexivity].
    - destruct (Nat.ltb _ (length (blob_of K k))); [now left|]. destruct (Nat.ltb _ _); [now left|reflexivity].
  Qed.
End KeygenAux.
