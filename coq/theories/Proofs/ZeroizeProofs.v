(* Model/Zeroize.v: the secret-bearing closure may stop as soon as a round adds nothing. *)
From Coq Require Import Strings.String.
From HbsLms Require Import Base.Bytes Model.Zeroize.

Fixpoint strs_eqb (a b : list string) : bool :=
  match a, b with
  | [], [] => true
  | x :: a', y :: b' => String.eqb x y && strs_eqb a' b'
  | _, _ => false
  end.

Lemma strs_eqb_eq a b : strs_eqb a b = true -> a = b.
Proof.
  revert b; induction a as [|x a IH]; intros [|y b]; cbn; try discriminate; [reflexivity|].
  intros E. apply andb_prop in E. destruct E as [E1 E2]. apply String.eqb_eq in E1. subst.
  now rewrite (IH b E2).
Qed.

Fixpoint closure_fix (fuel : nat) (all : list sstruct) (sb : list string) : list string :=
  match fuel with
  | O => sb
  | S f => if strs_eqb (grow all sb) sb then sb else closure_fix f all (grow all sb)
  end.

Lemma closure_stable fuel all sb : grow all sb = sb -> closure fuel all sb = sb.
Proof. intros E. induction fuel as [|f IH]; cbn [closure]; [reflexivity|]. now rewrite E. Qed.

(* evaluating [closure_fix] costs as many rounds as the ownership chains are deep, not as many as
   there are structs *)
Lemma closure_fix_eq fuel all sb : closure_fix fuel all sb = closure fuel all sb.
Proof.
  revert sb; induction fuel as [|f IH]; intros sb; cbn [closure_fix closure]; [reflexivity|].
  destruct (strs_eqb (grow all sb) sb) eqn:E; [|apply IH].
  apply strs_eqb_eq in E. rewrite E. symmetry. now apply closure_stable.
Qed.

Lemma secret_bearing_fix all : secret_bearing all = closure_fix (List.length all) all [].
Proof. symmetry. apply closure_fix_eq. Qed.

(* the [let] keeps the closure shared between the structs when the right-hand side is evaluated *)
Lemma all_ok_fix all impls :
  all_ok all impls =
  let sb := closure_fix (List.length all) all [] in
  forallb (fun s => negb (has (sname s) sb) || struct_ok all impls sb s) all.
Proof. unfold all_ok. now rewrite secret_bearing_fix. Qed.
