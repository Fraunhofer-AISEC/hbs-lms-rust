(* Known-answer tests from RFC 8554 Appendix F (the byte arrays of /repo/tests/rfc_testcase{1,2}.rs,
   extracted by the translator):
   - the independent RFC transcription (Spec/Rfc8554.v) accepts them, by evaluation with RFC 8554's
     own tables -> validates the spec;
   - the model (Model/Hss.v with the constants of the current source) accepts them: a corollary of
     the C02 equivalence, since the source's tables contain the RFC's;
   - both reject the vectors with one byte flipped or appended (the model's verdicts by evaluation;
     for the flipped message and the flipped root a lemma about the verifier spares one level each).
   Evaluated with the executable SHA-256 of Exec/Sha256.v (itself checked against FIPS 180 vectors). *)
From HbsLms Require Import Base.Bytes Model.Hss Spec.Rfc8554 Exec.Sha256 Gen.Generated.
From HbsLms Require Import Proofs.VerifyProofs Proofs.RfcVerifyEquiv Proofs.SourceRfc.

Definition sha := sha256_n 32.
Definition rfc_verify := hss_verify_rfc 32 sha (rfc_ots_tbl 32) rfc_lms_tbl 8.

Lemma sha_length x : length (sha x) = 32%nat.
Proof. reflexivity. Qed.

(* coqchk re-runs every evaluation without the bytecode machine, so each vector is evaluated on
   one side only (the transcription for acceptance, the model for rejection); the other verdict
   follows from this lemma. *)
Lemma rfc_tables_accept_model_accepts m s p :
  rfc_verify m s p = true -> hss_verify K_src 32 sha m s p = Ok tt.
Proof.
  intros E. apply (hss_verify_iff_rfc K_src 32 sha sha_length source_consts_rfc).
  - apply tables_ok_n. cbn. tauto.
  - revert E. apply hss_verify_rfc_mono; apply rfc_tables_in_source.
Qed.

Lemma both_reject m s p :
  is_ok (hss_verify K_src 32 sha m s p) = false ->
  (rfc_verify m s p, is_ok (hss_verify K_src 32 sha m s p)) = (false, false).
Proof.
  intros E. rewrite E. destruct (rfc_verify m s p) eqn:R; [|reflexivity].
  apply rfc_tables_accept_model_accepts in R. now rewrite R in E.
Qed.

Example kat1_spec : rfc_verify rfc_testcase1_message rfc_testcase1_signature rfc_testcase1_public_key = true.
Proof. vm_compute. reflexivity. Qed.
Example kat2_spec : rfc_verify rfc_testcase2_message rfc_testcase2_signature rfc_testcase2_public_key = true.
Proof. vm_compute. reflexivity. Qed.

Example kat1_model : hss_verify K_src 32 sha rfc_testcase1_message rfc_testcase1_signature rfc_testcase1_public_key = Ok tt.
Proof. exact (rfc_tables_accept_model_accepts _ _ _ kat1_spec). Qed.
Example kat2_model : hss_verify K_src 32 sha rfc_testcase2_message rfc_testcase2_signature rfc_testcase2_public_key = Ok tt.
Proof. exact (rfc_tables_accept_model_accepts _ _ _ kat2_spec). Qed.

(* corruptions of test case 1: a flipped byte in the message, a chain value, a path node, the root,
   the level count; a byte appended to the signature, to the public key *)
Definition flip (l : bytes) (i : nat) : bytes := firstn i l ++ [xor_byte (nth i l x00) x01] ++ skipn (S i) l.

Example kat1_corrupted :
  map (fun t : bytes * bytes * bytes => let '(m, s, p) := t in (rfc_verify m s p, is_ok (hss_verify K_src 32 sha m s p)))
      [(flip rfc_testcase1_message 3, rfc_testcase1_signature, rfc_testcase1_public_key);
       (rfc_testcase1_message, flip rfc_testcase1_signature 100, rfc_testcase1_public_key);
       (rfc_testcase1_message, flip rfc_testcase1_signature 1290, rfc_testcase1_public_key);
       (rfc_testcase1_message, rfc_testcase1_signature, flip rfc_testcase1_public_key 40);
       (rfc_testcase1_message, rfc_testcase1_signature, flip rfc_testcase1_public_key 3);
       (rfc_testcase1_message, rfc_testcase1_signature ++ [x00], rfc_testcase1_public_key);
       (rfc_testcase1_message, rfc_testcase1_signature, rfc_testcase1_public_key ++ [x00])]
  = repeat (false, false) 7.
Proof.
  (* [f_equal] would try [reflexivity] first, which evaluates all verdicts by plain conversion *)
  repeat (apply (f_equal2 cons); [apply both_reject|]); [..|reflexivity].
  - (* message: the signed public keys verify as they do for the vector itself ([kat1_model]), so
       only the bottom level is evaluated *)
    erewrite hss_verify_other_msg; [|exact kat1_model|vm_compute; reflexivity..]. vm_compute. reflexivity.
  - vm_compute. reflexivity.
  - vm_compute. reflexivity.
  - (* root: the vector is accepted under the root it carries, hence under no other; nothing is
       evaluated but the two parses *)
    erewrite hss_verify_other_root; [reflexivity|exact kat1_model|vm_compute; reflexivity..|reflexivity|discriminate].
  - vm_compute. reflexivity.
  - vm_compute. reflexivity.
  - vm_compute. reflexivity.
Qed.
