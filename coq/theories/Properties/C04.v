(* C04 -- a signature is released only after the advanced key was handed over and accepted.
   Only statements; proofs in Proofs/SignCoreProofs.v and Proofs/FastVerifyProofs.v.  [sign_core]
   returns the result together with the list of callback invocations (argument, verdict); the
   callback is an arbitrary function. *)
From HbsLms Require Import Base.Bytes Model.KeyBlob Model.Hss Model.SignCore Model.FastVerify.
From HbsLms Require Import Proofs.SignCoreProofs Proofs.FastVerifyProofs Gen.Generated.

(* for every hash, key blob (any bytes), message and callback behaviour *)
Theorem C04_order_of_effects :
  forall (n : nat) (H : bytes -> bytes) (blob msg : bytes) (cb : bytes -> bool)
         (r : res bytes) (calls : list (bytes * bool)),
    sign_core K_src n H blob msg cb = (r, calls) ->
    (* at most one invocation *)
    (length calls <= 1)%nat
    (* a signature is returned only after exactly one accepted invocation *)
    /\ (forall sig, r = Ok sig -> exists next, calls = [(next, true)] /\ cb next = true)
    (* an error means: never invoked, or invoked once and rejected -- and nothing is returned *)
    /\ (r = Err -> calls = [] \/ exists next, calls = [(next, false)] /\ cb next = false)
    (* whenever it is invoked, a signature had been computed from a well-formed key, and the
       argument is the complete successor key (same length: counter + 1, or the wiped key) *)
    /\ (forall next v, In (next, v) calls ->
          exists k ps sig,
            blob_parse K_src n blob = Ok k /\ params_of_bytes K_src n (k_params k) = Ok ps
            /\ hss_signature K_src n H ps (k_seed k) (k_counter k) msg = Ok sig
            /\ next = blob_of K_src (key_increment K_src n k ps) /\ v = cb next
            /\ length next = length blob).
Proof. intros n H. exact (sign_core_effects K_src n H). Qed.

(* the in-memory signing key goes through the same path: its internal callback always accepts *)
Theorem C04_signing_key :
  forall (n : nat) (H : bytes -> bytes) (key msg : bytes),
    signing_key_try_sign K_src n H key msg
    = match sign_core K_src n H key msg (fun _ => true) with
      | (Ok sig, [(next, _)]) => (Ok sig, next)
      | (r, _) => (r, key)
      end.
Proof. reflexivity. Qed.

(* the fast-verify entry point (sign_mut, trailer r found by the search): the same protocol, and a
   message that is refused (too short, or a trailer that is not all zero) never reaches the callback *)
Theorem C04_sign_mut_order_of_effects :
  forall (n : nat) (H : bytes -> bytes) (blob msg r : bytes) (cb : bytes -> bool)
         (res : res bytes) (calls : list (bytes * bool)) (msg' : bytes),
    sign_mut K_src n H blob msg r cb = (res, calls, msg') ->
    (length calls <= 1)%nat
    /\ (forall sig, res = Ok sig -> exists next, calls = [(next, true)] /\ cb next = true)
    /\ (res = Err -> calls = [] \/ exists next, calls = [(next, false)] /\ cb next = false)
    /\ ((length msg <= n)%nat \/ all_zero (skipn (length msg - n) msg) = false ->
        res = Err /\ calls = [] /\ msg' = msg).
Proof. intros n H. exact (sign_mut_effects K_src n H). Qed.

Print Assumptions C04_order_of_effects.
Print Assumptions C04_signing_key.
Print Assumptions C04_sign_mut_order_of_effects.
