(* C06 -- verification is total: arbitrary untrusted bytes never crash the verifier.
   Instances; the proofs are in Proofs/VerifyProofs.v and, for what a parsed signature looks like,
   Proofs/CodecProofs.v ([parse_lms_sig_Ok]).  The quantification is over ALL byte strings
   (empty, truncated at any offset, unknown type codes, absurd level counts, trailing data). *)
From HbsLms Require Import Base.Bytes Model.Consts Model.Codec Model.Hss.
From HbsLms Require Import Proofs.CodecProofs Proofs.VerifyProofs Gen.Generated.

Local Open Scope N_scope.

(* hbs_lms::verify / VerifyingKey::verify: the outcome is accept or reject, never a panic *)
Theorem C06_verify_total :
  forall (n : nat) (H : bytes -> bytes) (msg sig pk : bytes),
    hss_verify K_src n H msg sig pk <> Panic.
Proof. apply hss_verify_total. Qed.

Theorem C06_parsers_total :
  forall (n : nat) (data : bytes),
    parse_hss_sig K_src n data <> Panic /\ parse_hss_pk K_src n data <> Panic
    /\ parse_lms_sig K_src n data <> Panic /\ parse_lms_pk K_src n data <> Panic.
Proof.
  repeat split; [apply parse_hss_sig_total|apply parse_hss_pk_total
                        |apply parse_lms_sig_total|apply parse_lms_pk_total].
Qed.

(* whatever the parser hands to the hash computations is exactly sized (so that the slicing and
   indexing inside them is in range), the leaf index is inside the tree, and input is consumed
   (the level loop is bounded by MAX_ALLOWED_HSS_LEVELS and each step consumes bytes) *)
Theorem C06_parsed_signature_is_well_shaped :
  forall (n : nat) (data : bytes) (s : lms_sig) (rest : bytes),
    parse_lms_sig K_src n data = Ok (s, rest) ->
    length (s_C s) = n
    /\ length (s_y s) = o_p (s_ots s) /\ Forall (fun y => length y = n) (s_y s)
    /\ length (s_path s) = l_h (s_lms s) /\ Forall (fun y => length y = n) (s_path s)
    /\ s_q s < 2 ^ N.of_nat (l_h (s_lms s))
    /\ (length rest < length data)%nat.
Proof.
  intros n data s rest E.
  apply parse_lms_sig_Ok in E as (qb & tb & lb & L1 & _ & _ & _ & _ & _ & (Hq & HC & Hy & Fy & Hp & Fp) & ->).
  repeat split; trivial. rewrite !app_length. lia.
Qed.

(* the level count an attacker writes into a signature cannot drive more iterations than the
   build supports: larger values are rejected before the loop *)
Theorem C06_level_count_bounded :
  forall (n : nat) (data : bytes) (s : hss_sig),
    parse_hss_sig K_src n data = Ok s -> h_nspk s < N.of_nat (c_max_levels K_src).
Proof.
  intros n data s E. now apply parse_hss_sig_Ok in E as (nb & r1 & r2 & _ & _ & _ & Hlt & _).
Qed.

Example ex_C06_rejects :
  hss_verify K_src 32 (fun _ => repeat x00 32) [] [] [] = Err
  /\ hss_verify K_src 32 (fun _ => repeat x00 32) [] (unhex "ffffffff") (unhex "00000001") = Err.
Proof. vm_compute. split; reflexivity. Qed.

Print Assumptions C06_verify_total.
Print Assumptions C06_parsers_total.
Print Assumptions C06_parsed_signature_is_well_shaped.
Print Assumptions C06_level_count_bounded.
