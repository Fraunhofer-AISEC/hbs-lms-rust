(* The hash preimages of the model, under the constants of RFC 8554 / hash-sigs, are the
   concatenations the RFC writes down; hence the model's chains, LM-OTS keys, candidates and
   tree nodes are the RFC's (Spec/Rfc8554.v). *)
From HbsLms Require Import Base.Bytes Model.Consts Model.Winternitz Model.Lmots Model.Lms.
From HbsLms Require Import Spec.Rfc8554Ots Spec.Rfc8554.
From HbsLms Require Import Proofs.WinternitzDom.

Local Open Scope N_scope.

(* A buffer filled by successive [blit]s is read off piece by piece when it is written as a
   right-nested concatenation: a write passes the pieces that end before its offset and then
   replaces the piece it meets. *)
Lemma blit_skip (a r : bytes) off d :
  (length a <= off)%nat -> blit (a ++ r) off d = a ++ blit r (off - length a) d.
Proof.
  intros La. unfold blit.
  rewrite firstn_app, firstn_all2 by lia. rewrite skipn_app, (skipn_all2 a) by lia.
  rewrite <- app_assoc. cbn [app]. do 4 f_equal. lia.
Qed.

(* the offset is a premise: after [blit_skip] it arrives as a difference *)
Lemma blit_head (m c : bytes) off d :
  off = 0%nat -> length d = length m -> blit (m ++ c) off d = d ++ c.
Proof.
  intros -> Ld. unfold blit. cbn [firstn app Nat.add].
  rewrite Ld, skipn_app, skipn_all, Nat.sub_diag. reflexivity.
Qed.

Lemma blit_exact (a m c d : bytes) off :
  length a = off -> length d = length m -> blit (a ++ m ++ c) off d = a ++ d ++ c.
Proof. intros La Ld. rewrite blit_skip, blit_head by lia. reflexivity. Qed.

(* [autorewrite with blit] performs every write of a nest of [blit]s over a right-nested buffer.
   The side conditions compare lengths of [be], [repeat] and literal pieces with the offsets;
   lengths of variables are taken from the context. *)
Global Hint Rewrite blit_skip blit_head
  using (cbn [length]; rewrite ?repeat_length, ?be_length; lia) : blit.

(* the constants an RFC 8554 / hash-sigs compatible implementation must use *)
Definition consts_rfc (K : consts) : bool :=
  bytes_eqb (c_d_pblc K) (u16str D_PBLC) && bytes_eqb (c_d_mesg K) (u16str D_MESG)
  && bytes_eqb (c_d_leaf K) (u16str D_LEAF) && bytes_eqb (c_d_intr K) (u16str D_INTR)
  && Nat.eqb (c_ilen K) 16
  && Nat.eqb (c_iter_i K) 0 && Nat.eqb (c_iter_q K) 16 && Nat.eqb (c_iter_k K) 20
  && Nat.eqb (c_iter_j K) 22 && Nat.eqb (c_iter_prev K) 23.

(* [consts_rfc K = true], read field by field ([rfc_fields]) *)
Set Implicit Arguments.
Record consts_rfc_fields (K : consts) : Prop := {
  rfc_d_pblc : c_d_pblc K = u16str D_PBLC;
  rfc_d_mesg : c_d_mesg K = u16str D_MESG;
  rfc_d_leaf : c_d_leaf K = u16str D_LEAF;
  rfc_d_intr : c_d_intr K = u16str D_INTR;
  rfc_ilen : c_ilen K = 16%nat;
  rfc_iter_i : c_iter_i K = 0%nat;
  rfc_iter_q : c_iter_q K = 16%nat;
  rfc_iter_k : c_iter_k K = 20%nat;
  rfc_iter_j : c_iter_j K = 22%nat;
  rfc_iter_prev : c_iter_prev K = 23%nat }.
Unset Implicit Arguments.

Section RfcCore.
  Variable K : consts.
  Variable n : nat.
  Variable H : bytes -> bytes.
  Hypothesis H_len : forall x, length (H x) = n.
  Hypothesis RFC : consts_rfc K = true.

  Lemma rfc_fields : consts_rfc_fields K.
  Proof.
    pose proof RFC as R. repeat (apply andb_prop in R; destruct R as [R ?]).
    split; (apply bytes_eqb_eq + apply Nat.eqb_eq); assumption.
  Qed.

  (* HashChain::prepare_hash_chain_data / do_hash_chain: the buffer is I || u32(q) || u16(i) || u8(j) || tmp *)
  Lemma chain_buf_rfc I q i j x :
    length I = 16%nat -> length x = n ->
    chain_buf K n I q i j x = I ++ u32str q ++ u16str i ++ u8str j ++ x.
  Proof using H_len RFC. (* the same arguments as [chain_rfc]; [H_len] itself is not used *)
    intros LI Lx. pose proof rfc_fields as F. unfold chain_buf.
    rewrite (rfc_iter_i F), (rfc_iter_q F), (rfc_iter_k F), (rfc_iter_j F), (rfc_iter_prev F).
    (* the zero buffer cut where the five writes land: I at 0, q at 16, i at 20, j at 22, prev at 23 *)
    replace (23 + n)%nat with (16 + (4 + (2 + (1 + n))))%nat by lia.
    rewrite !repeat_app, <- (app_nil_r (repeat x00 n)).
    autorewrite with blit. now rewrite app_nil_r.
  Qed.

  Lemma chain_rfc I q i from steps x :
    length I = 16%nat -> length x = n ->
    chain K n H I q i from steps x = hchain H I q i from steps x.
  Proof.
    intros LI. revert from x; induction steps as [|s IH]; intros from x Lx; cbn [chain hchain]; [reflexivity|].
    rewrite chain_buf_rfc by assumption. apply IH. apply H_len.
  Qed.

  (* leaf and interior node hashing are the RFC's (5.3) *)
  Lemma leaf_hash_rfc I r Kq : leaf_hash K H I r Kq = H (I ++ u32str r ++ u16str D_LEAF ++ Kq).
  Proof. unfold leaf_hash. now rewrite (rfc_d_leaf rfc_fields). Qed.

  Lemma intr_hash_rfc I r a b : intr_hash K H I r a b = H (I ++ u32str r ++ u16str D_INTR ++ a ++ b).
  Proof. unfold intr_hash. now rewrite (rfc_d_intr rfc_fields). Qed.

  (* Algorithm 6a step 4: climbing along a path list = the RFC's while loop *)
  Lemma climb_rfc I path node tmp i0 (pf : nat -> bytes) :
    (forall k, (k < length path)%nat -> pf (i0 + k)%nat = nth k path []) ->
    (1 < node -> True) ->
    2 ^ N.of_nat (length path) <= node < 2 ^ N.of_nat (S (length path)) ->
    climb K H I node tmp path = climb6a H I node tmp pf i0 (length path).
  Proof.
    revert node tmp i0; induction path as [|s rest IH]; intros node tmp i0 Hpf _ Hn; [reflexivity|].
    cbn [climb climb6a length].
    assert (Hgt : 1 < node).
    { destruct Hn as [Hlo _]. cbn [length] in Hlo. rewrite Nat2N.inj_succ, N.pow_succ_r' in Hlo.
      lia. }
    destruct (N.leb_spec node 1); [lia|].
    assert (E0 : pf i0 = s) by (rewrite <- (Nat.add_0_r i0); rewrite (Hpf 0%nat) by (cbn; lia); reflexivity).
    rewrite E0, !intr_hash_rfc.
    apply IH; [| trivial |].
    - intros k Hk. replace (S i0 + k)%nat with (i0 + S k)%nat by lia. rewrite (Hpf (S k)) by (cbn; lia). reflexivity.
    - destruct Hn as [Hlo Hhi]. cbn [length] in *. rewrite !Nat2N.inj_succ, !N.pow_succ_r' in *. lia.
  Qed.

  Lemma ots_priv_rfc I q seed prm :
    ots_priv H I q seed prm = map (fun i => x_qi H I q (N.of_nat i) seed) (seq 0 (o_p prm)).
  Proof. unfold ots_priv, nrange. now rewrite map_map. (* [u8str 0xff] computes to [[xff]] *) Qed.

  (* Algorithm 1 *)
  Theorem ots_pub_rfc I q seed prm :
    length I = 16%nat ->
    ots_pub K n H I q seed prm
    = alg1_public_key H I q (o_w prm) (N.of_nat (o_p prm)) seed.
  Proof.
    intros LI. unfold ots_pub, ots_pub_of, alg1_public_key.
    rewrite (rfc_d_pblc rfc_fields), ots_priv_rfc. unfold nrange.
    rewrite combine_map_map, map_map, Nat2N.id.
    do 5 f_equal. (* down to the function mapped over the chain indices *) apply map_ext. intros i.
    apply chain_rfc; [assumption|apply H_len].
  Qed.

  (* Algorithm 3, for a parameter row that follows Appendix B *)
  Theorem ots_sig_rfc I q seed prm C msg :
    dom_ok n prm = true -> length I = 16%nat ->
    ots_sig_bytes prm C (ots_sign_ys K n H I q seed prm C msg)
    = alg3_signature n H (o_type prm) I q (o_w prm) (N.of_nat (o_p prm)) (o_ls prm) seed C msg.
  Proof.
    intros OK LI. unfold ots_sig_bytes, ots_sign_ys, alg3_signature, ots_msg_hash.
    rewrite (rfc_d_mesg rfc_fields), (digits_rfc n prm OK), ots_priv_rfc. unfold rfc_digits, nrange.
    rewrite Nat2N.id, !combine_map_map, map_map.
    do 3 f_equal. apply map_ext. intros i.
    apply chain_rfc; [assumption|apply H_len].
  Qed.

  (* 5.3: the tree *)
  Theorem tree_rfc h I seed prm d r :
    length I = 16%nat ->
    tree K n H h I seed prm d r
    = T H I (fun q => alg1_public_key H I q (o_w prm) (N.of_nat (o_p prm)) seed) (N.of_nat h) d r.
  Proof.
    intros LI. revert r; induction d as [|d IH]; intros r; cbn [tree T].
    - rewrite leaf_hash_rfc, ots_pub_rfc by assumption. reflexivity.
    - rewrite intr_hash_rfc, !IH. reflexivity.
  Qed.

  Theorem lms_pk_rfc prm lp I root :
    lms_pk_bytes prm lp I root = lms_public_key (l_type lp) (o_type prm) I root.
  Proof. reflexivity. Qed.

  (* 5.4.1: LMS signature = u32str(q) || lmots_signature || u32str(type) || path *)
  Theorem lms_sig_rfc I seed prm lp q C msg :
    dom_ok n prm = true -> length I = 16%nat ->
    lms_sign_bytes K n H I seed prm lp q C msg
    = lms_signature H (l_type lp) I
                    (fun q' => alg1_public_key H I q' (o_w prm) (N.of_nat (o_p prm)) seed)
                    (N.of_nat (l_h lp)) q
                    (alg3_signature n H (o_type prm) I q (o_w prm) (N.of_nat (o_p prm)) (o_ls prm) seed C msg).
  Proof.
    intros OK LI. unfold lms_sign_bytes, lms_signature.
    rewrite ots_sig_rfc by assumption. rewrite Nat2N.id.
    do 4 f_equal. (* down to the function mapped over the path levels *) apply map_ext. intros i. now rewrite tree_rfc.
  Qed.
End RfcCore.
