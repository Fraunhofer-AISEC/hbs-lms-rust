(* C14 -- build-time limits only restrict what is accepted, never how accepted keys behave.
   Proofs in Proofs/CfgProofs.v (totality: Proofs/TotalProofs.v).  A build configuration is
   (MAX_ALLOWED_HSS_LEVELS, TREE_HEIGHTS, WINTERNITZ_PARAMETERS); [with_cfg K_src lv hs ws] is the
   model of the library built under it, [K_src] the model under the configuration of the
   current source tree (the default one). *)
From HbsLms Require Import Base.Bytes Model.Consts Model.KeyBlob Model.Codec Model.Hss Model.SignCore.
From HbsLms Require Import Proofs.KeyBlobProofs Proofs.CfgProofs Proofs.TotalProofs Gen.Generated.

Local Open Scope N_scope.

Definition hash_sizes : list nat := [16%nat; 24%nat; 32%nat].

Lemma source_pack_ok : forallb (pack_ok K_src) hash_sizes = true.
Proof. vm_compute. reflexivity. Qed.

Lemma pack_ok_n n : In n hash_sizes -> pack_ok K_src n = true.
Proof. exact (proj1 (forallb_forall _ _) source_pack_ok n). Qed.

(* every parameter list within the limits of both builds: same private key and public key *)
Theorem C14_same_keys_within_limits :
  forall (n : nat) (H : bytes -> bytes) (lv : nat) (hs ws : list N) (ps : list param) (seed : bytes),
    In n hash_sizes -> Forall (fun p => In p (tbl_params K_src n)) ps -> ps <> [] ->
    all_within_limits (with_cfg K_src lv hs ws) 0 ps = true -> all_within_limits K_src 0 ps = true ->
    keygen (with_cfg K_src lv hs ws) n H ps seed = keygen K_src n H ps seed.
Proof.
  intros n H lv hs ws ps seed Hn. exact (keygen_cfg K_src n H lv hs ws (pack_ok_n n Hn) ps seed).
Qed.

(* ... same signatures, same successor keys, same callback record, same lifetime *)
Theorem C14_same_signatures_within_limits :
  forall (n : nat) (H : bytes -> bytes) (lv : nat) (hs ws : list N) (blob : bytes) (k : rfc_key)
         (ps : list param) (msg : bytes) (cb : bytes -> bool),
    blob_parse K_src n blob = Ok k ->
    params_of_bytes (with_cfg K_src lv hs ws) n (k_params k) = Ok ps -> params_of_bytes K_src n (k_params k) = Ok ps ->
    sign_core (with_cfg K_src lv hs ws) n H blob msg cb = sign_core K_src n H blob msg cb
    /\ get_lifetime (with_cfg K_src lv hs ws) n blob = get_lifetime K_src n blob.
Proof. apply sign_cfg. Qed.

(* ... same verification verdicts for signatures with fewer levels than either build supports *)
Theorem C14_same_verdicts_within_limits :
  forall (n : nat) (H : bytes -> bytes) (lv : nat) (hs ws : list N) (msg sig pk nb rest : bytes),
    rd 4 sig = Ok (nb, rest) -> be_dec nb < N.of_nat lv -> be_dec nb < N.of_nat (c_max_levels K_src) ->
    hss_verify (with_cfg K_src lv hs ws) n H msg sig pk = hss_verify K_src n H msg sig pk.
Proof. apply hss_verify_cfg. Qed.

(* parameter lists beyond the limits are refused with an error: at key generation ... *)
Theorem C14_beyond_limits_refused_at_keygen :
  forall (n : nat) (H : bytes -> bytes) (lv : nat) (hs ws : list N) (ps : list param) (seed : bytes),
    all_within_limits (with_cfg K_src lv hs ws) 0 ps = false ->
    keygen (with_cfg K_src lv hs ws) n H ps seed = Err.
Proof. apply keygen_beyond_limits. Qed.

(* ... and when a key written by a build with wider limits is loaded: no callback, no signature *)
Theorem C14_beyond_limits_refused_at_load :
  forall (n : nat) (H : bytes -> bytes) (lv : nat) (hs ws : list N) (blob : bytes) (k : rfc_key)
         (msg : bytes) (cb : bytes -> bool),
    blob_parse K_src n blob = Ok k -> params_of_bytes (with_cfg K_src lv hs ws) n (k_params k) = Err ->
    sign_core (with_cfg K_src lv hs ws) n H blob msg cb = (Err, [])
    /\ get_lifetime (with_cfg K_src lv hs ws) n blob = Err.
Proof. apply key_load_beyond_limits. Qed.

(* ... and never a crash, under any configuration (C11's totality theorems are generic in K) *)
Theorem C14_no_crash_under_any_configuration :
  forall (n : nat) (H : bytes -> bytes) (lv : nat) (hs ws : list N) (ps : list param) (seed blob msg : bytes)
         (cb : bytes -> bool),
    keygen (with_cfg K_src lv hs ws) n H ps seed <> Panic
    /\ fst (sign_core (with_cfg K_src lv hs ws) n H blob msg cb) <> Panic.
Proof. intros. split; [apply keygen_total|apply sign_core_total]. Qed.

(* the private key always carries 8 parameter bytes, whatever the level limit of the build *)
Theorem C14_blob_size_is_configuration_independent :
  forall (lv : nat) (hs ws : list N) (k : rfc_key),
    blob_of (with_cfg K_src lv hs ws) k = blob_of K_src k
    /\ c_ref_levels (with_cfg K_src lv hs ws) = 8%nat.
Proof. split; reflexivity. Qed.

(* non-vacuity: a 2-level configuration accepts W4/H5 x 2 and refuses three levels and W1 *)
Example ex_C14_limits :
  let K2 := with_cfg K_src 2 [5; 5] [4; 4] in
  let o4 := {| o_type := 3; o_w := 4; o_p := 35; o_ls := 4 |} in
  let o1 := {| o_type := 1; o_w := 1; o_p := 136; o_ls := 7 |} in
  let h5 := {| l_type := 5; l_h := 5 |} in
  all_within_limits K2 0 [(o4, h5); (o4, h5)] = true
  /\ all_within_limits K2 0 [(o4, h5); (o4, h5); (o4, h5)] = false
  /\ all_within_limits K2 0 [(o1, h5)] = false.
Proof. vm_compute. repeat split. Qed.

Print Assumptions C14_same_keys_within_limits.
Print Assumptions C14_same_signatures_within_limits.
Print Assumptions C14_same_verdicts_within_limits.
Print Assumptions C14_beyond_limits_refused_at_keygen.
Print Assumptions C14_beyond_limits_refused_at_load.
Print Assumptions C14_no_crash_under_any_configuration.
