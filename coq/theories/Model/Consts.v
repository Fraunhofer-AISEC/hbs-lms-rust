(* The constants and tables of the implementation, as a parameter of the model.
   [Gen/Generated.v] (written by the translator from /repo's current source on
   every run) defines the instance [K_src]. *)
From HbsLms Require Import Base.Bytes.

(* enum variants are identified by their discriminant *)
Record consts := {
  (* src/constants.rs *)
  c_ilen : nat;
  c_max_seed_len : nat;
  c_max_hash_size : nat;
  c_max_hash_block_size : nat;
  c_d_pblc : bytes;
  c_d_mesg : bytes;
  c_d_leaf : bytes;
  c_d_intr : bytes;
  c_topseed_seed : nat;
  c_topseed_len : nat;
  c_topseed_d : nat;
  c_topseed_which : nat;
  c_d_topseed : N;
  c_prng_i : nat;
  c_prng_q : nat;
  c_prng_j : nat;
  c_prng_ff : nat;
  c_prng_seed : nat;
  c_prng_len_base : nat;            (* prng_len(seed_len) = base + seed_len *)
  c_seed_child_seed : N;
  c_seed_randomizer_seed : N;
  c_used_leafs_size : nat;          (* HSS_COMPRESSED_USED_LEAFS_SIZE *)
  c_ref_levels : nat;               (* REF_IMPL_MAX_ALLOWED_HSS_LEVELS *)
  c_chain_counts : list N;          (* HASH_CHAIN_COUNTS *)
  c_chain_w_index : list (N * N);   (* winternitz_parameter -> w_i *)
  c_chain_n_index : list (N * N);   (* output_size -> o_i *)
  c_chain_stride : N;               (* HASH_CHAIN_COUNTS[w_i * stride + o_i] *)
  c_min_subtree : nat;
  c_daux_d : nat;
  c_daux_prefix_len : nat;
  c_d_daux : N;
  c_iter_i : nat;
  c_iter_q : nat;
  c_iter_k : nat;
  c_iter_j : nat;
  c_iter_prev : nat;
  (* src/lm_ots/parameters.rs *)
  c_ots_from_u32 : list (N * N);        (* impl From<u32>: code -> variant *)
  c_ots_get_from_type : list (N * N);   (* get_from_type: code -> variant *)
  c_ots_construct : list (N * (N * N * N)); (* variant -> (type_id, winternitz, checksum_left_shift) *)
  (* src/lms/parameters.rs *)
  c_lms_from_u32 : list (N * N);
  c_lms_get_from_type : list (N * N);
  c_lms_construct : list (N * (N * N)); (* variant -> (type_id, tree_height) *)
  (* src/hss/reference_impl_private_key.rs *)
  c_param_set_end : N;
  (* src/hss/aux.rs *)
  c_aux_data_marker : nat;
  c_no_aux_data : N;
  c_aux_data_hashes : nat;
  c_ipad : N;
  c_opad : N;
  (* build.rs + environment of the build under test *)
  c_max_levels : nat;               (* MAX_ALLOWED_HSS_LEVELS *)
  c_tree_heights : list N;          (* TREE_HEIGHTS *)
  c_wparams : list N;               (* WINTERNITZ_PARAMETERS *)
}.

Fixpoint assoc {A} (k : N) (l : list (N * A)) : option A :=
  match l with
  | [] => None
  | (k', v) :: l' => if N.eqb k k' then Some v else assoc k l'
  end.

Lemma assoc_In {A} k (l : list (N * A)) v : assoc k l = Some v -> In (k, v) l.
Proof.
  induction l as [|[k' v'] l IH]; cbn; [discriminate|].
  destruct (N.eqb_spec k k') as [->|_].
  - intros [= ->]. now left.
  - right. now apply IH.
Qed.

(* LM-OTS parameter set as the code's [LmotsParameter<H>] *)
Record otsp := { o_type : N; o_w : N; o_p : nat; o_ls : N }.
(* LMS parameter set as the code's [LmsParameter<H>] *)
Record lmsp := { l_type : N; l_h : nat }.

Definition otsp_eqb (a b : otsp) : bool :=
  N.eqb (o_type a) (o_type b) && N.eqb (o_w a) (o_w b) && Nat.eqb (o_p a) (o_p b)
  && N.eqb (o_ls a) (o_ls b).
Definition lmsp_eqb (a b : lmsp) : bool :=
  N.eqb (l_type a) (l_type b) && Nat.eqb (l_h a) (l_h b).

Lemma otsp_eqb_eq a b : otsp_eqb a b = true <-> a = b.
Proof.
  destruct a, b; unfold otsp_eqb; cbn. rewrite !andb_true_iff, !N.eqb_eq, Nat.eqb_eq.
  split; [intros [[[-> ->] ->] ->]; reflexivity | intros [= -> -> -> ->]; auto].
Qed.
Lemma lmsp_eqb_eq a b : lmsp_eqb a b = true <-> a = b.
Proof.
  destruct a, b; unfold lmsp_eqb; cbn. rewrite !andb_true_iff, !N.eqb_eq, Nat.eqb_eq.
  split; [intros [-> ->]; reflexivity | intros [= -> ->]; auto].
Qed.

Section Tables.
  Variable K : consts.
  Variable n : nat.   (* H::OUTPUT_SIZE *)

  (* constants.rs: get_num_winternitz_chains; [None] = the const fn's panic arm *)
  Definition num_chains (w : N) : option N :=
    match assoc w (c_chain_w_index K), assoc (N.of_nat n) (c_chain_n_index K) with
    | Some wi, Some oi => nth_error (c_chain_counts K) (N.to_nat (wi * c_chain_stride K + oi))
    | _, _ => None
    end.

  (* LmotsAlgorithm::construct_parameter on a variant *)
  Definition ots_construct (variant : N) : option otsp :=
    match assoc variant (c_ots_construct K) with
    | Some (ty, w, ls) =>
      match num_chains w with
      | Some p => Some {| o_type := ty; o_w := w; o_p := N.to_nat (p mod 65536); o_ls := ls |}
      | None => None
      end
    | None => None
    end.

  (* LmotsAlgorithm::get_from_type *)
  Definition ots_of_type (code : N) : option otsp :=
    match assoc code (c_ots_get_from_type K) with
    | Some v => ots_construct v
    | None => None
    end.

  (* LmotsAlgorithm::from(u32).construct_parameter() *)
  Definition ots_of_u32 (code : N) : option otsp :=
    match assoc code (c_ots_from_u32 K) with
    | Some v => ots_construct v
    | None => None
    end.

  Definition lms_construct (variant : N) : option lmsp :=
    match assoc variant (c_lms_construct K) with
    | Some (ty, h) => Some {| l_type := ty; l_h := N.to_nat h |}
    | None => None
    end.

  Definition lms_of_type (code : N) : option lmsp :=
    match assoc code (c_lms_get_from_type K) with
    | Some v => lms_construct v
    | None => None
    end.

  Definition lms_of_u32 (code : N) : option lmsp :=
    match assoc code (c_lms_from_u32 K) with
    | Some v => lms_construct v
    | None => None
    end.
End Tables.

(* the same constants and tables under another build configuration
   (HBS_LMS_MAX_ALLOWED_HSS_LEVELS / HBS_LMS_TREE_HEIGHTS / HBS_LMS_WINTERNITZ_PARAMETERS) *)
Definition with_cfg (K : consts) (levels : nat) (heights ws : list N) : consts :=
  {| c_ilen := c_ilen K; c_max_seed_len := c_max_seed_len K; c_max_hash_size := c_max_hash_size K;
     c_max_hash_block_size := c_max_hash_block_size K;
     c_d_pblc := c_d_pblc K; c_d_mesg := c_d_mesg K; c_d_leaf := c_d_leaf K; c_d_intr := c_d_intr K;
     c_topseed_seed := c_topseed_seed K; c_topseed_len := c_topseed_len K; c_topseed_d := c_topseed_d K;
     c_topseed_which := c_topseed_which K; c_d_topseed := c_d_topseed K;
     c_prng_i := c_prng_i K; c_prng_q := c_prng_q K; c_prng_j := c_prng_j K; c_prng_ff := c_prng_ff K;
     c_prng_seed := c_prng_seed K; c_prng_len_base := c_prng_len_base K;
     c_seed_child_seed := c_seed_child_seed K; c_seed_randomizer_seed := c_seed_randomizer_seed K;
     c_used_leafs_size := c_used_leafs_size K; c_ref_levels := c_ref_levels K;
     c_chain_counts := c_chain_counts K; c_chain_w_index := c_chain_w_index K;
     c_chain_n_index := c_chain_n_index K; c_chain_stride := c_chain_stride K;
     c_min_subtree := c_min_subtree K; c_daux_d := c_daux_d K; c_daux_prefix_len := c_daux_prefix_len K;
     c_d_daux := c_d_daux K;
     c_iter_i := c_iter_i K; c_iter_q := c_iter_q K; c_iter_k := c_iter_k K; c_iter_j := c_iter_j K;
     c_iter_prev := c_iter_prev K;
     c_ots_from_u32 := c_ots_from_u32 K; c_ots_get_from_type := c_ots_get_from_type K;
     c_ots_construct := c_ots_construct K;
     c_lms_from_u32 := c_lms_from_u32 K; c_lms_get_from_type := c_lms_get_from_type K;
     c_lms_construct := c_lms_construct K;
     c_param_set_end := c_param_set_end K;
     c_aux_data_marker := c_aux_data_marker K; c_no_aux_data := c_no_aux_data K;
     c_aux_data_hashes := c_aux_data_hashes K; c_ipad := c_ipad K; c_opad := c_opad K;
     c_max_levels := levels; c_tree_heights := heights; c_wparams := ws |}.
