(* The signer-side entry points of Model/SignCore.v as "prepare, then ask the callback":
   everything hss_sign_core does before the callback (load the key, compute the signature and
   the successor key) is a function [sign_prepare] of blob and message; the callback sees its
   result once, and its verdict alone decides what is released (C04). *)
From HbsLms Require Import Base.Bytes Model.Consts Model.Counter Model.KeyBlob Model.Hss Model.SignCore.
From HbsLms Require Import Proofs.KeyBlobProofs.

Section SignCoreProofs.
  Variable K : consts.
  Variable n : nat.
  Variable H : bytes -> bytes.

  Definition sign_prepare (blob msg : bytes) : res (bytes * bytes) :=
    do (k, ps) <- load_key K n blob;
    do sig <- hss_signature K n H ps (k_seed k) (k_counter k) msg;
    Ok (sig, blob_of K (key_increment K n k ps)).

  Definition ask (cb : bytes -> bool) (r : res (bytes * bytes)) : res bytes * calls :=
    match r with
    | Ok (sig, next) => if cb next then (Ok sig, [(next, true)]) else (Err, [(next, false)])
    | Err => (Err, [])
    | Panic => (Panic, [])
    end.

  Lemma sign_core_eq blob msg cb : sign_core K n H blob msg cb = ask cb (sign_prepare blob msg).
  Proof.
    unfold sign_core, sign_prepare, load_key.
    destruct (blob_parse K n blob) as [k| |]; try reflexivity. cbn [bind].
    destruct (params_of_bytes K n (k_params k)) as [ps| |]; try reflexivity. cbn [bind].
    now destruct (hss_signature K n H ps (k_seed k) (k_counter k) msg).
  Qed.

  Lemma ask_total cb r : r <> Panic -> fst (ask cb r) <> Panic.
  Proof. destruct r as [[sig next]| |]; cbn [ask fst]; [now destruct (cb next)|discriminate|congruence]. Qed.

  Lemma ask_Ok cb r sig calls :
    ask cb r = (Ok sig, calls) <-> exists next, r = Ok (sig, next) /\ cb next = true /\ calls = [(next, true)].
  Proof.
    destruct r as [[s next]| |]; cbn [ask]; split; try discriminate; try (now intros (? & [=] & _)).
    - destruct (cb next) eqn:EC; [|discriminate]. intros [= <- <-]. now exists next.
    - intros (next' & [= <- <-] & -> & ->). reflexivity.
  Qed.

  Lemma sign_prepare_Ok blob msg sig next :
    sign_prepare blob msg = Ok (sig, next) <->
    exists k ps, load_key K n blob = Ok (k, ps)
                 /\ hss_signature K n H ps (k_seed k) (k_counter k) msg = Ok sig
                 /\ next = blob_of K (key_increment K n k ps).
  Proof.
    unfold sign_prepare. split.
    - intros E. apply bind_Ok in E as ([k ps] & EL & E). apply bind_Ok in E as (s & ES & [= <- <-]).
      now exists k, ps.
    - intros (k & ps & -> & ES & ->). cbn [bind]. now rewrite ES.
  Qed.

  Lemma sign_core_Ok blob msg cb sig calls :
    sign_core K n H blob msg cb = (Ok sig, calls) <->
    exists next, sign_prepare blob msg = Ok (sig, next) /\ cb next = true /\ calls = [(next, true)].
  Proof. rewrite sign_core_eq. apply ask_Ok. Qed.

  Lemma get_lifetime_eq key :
    get_lifetime K n key = (do (k, ps) <- load_key K n key; lifetime (heights_of ps) (k_counter k)).
  Proof.
    unfold get_lifetime, load_key. destruct (blob_parse K n key) as [k| |]; try reflexivity. cbn [bind].
    now destruct (params_of_bytes K n (k_params k)).
  Qed.

  Lemma sign_core_wiped msg cb :
    pack_ok K n = true -> sign_core K n H (blob_of K (wiped K n)) msg cb = (Err, []).
  Proof. intros PK. rewrite sign_core_eq. unfold sign_prepare. now rewrite load_wiped. Qed.

  Lemma get_lifetime_wiped : pack_ok K n = true -> get_lifetime K n (blob_of K (wiped K n)) = Err.
  Proof. intros PK. rewrite get_lifetime_eq. now rewrite load_wiped. Qed.

  (* C04: what a caller can observe of the callback protocol *)
  Theorem sign_core_effects blob msg cb r calls :
    sign_core K n H blob msg cb = (r, calls) ->
    (length calls <= 1)%nat
    /\ (forall sig, r = Ok sig -> exists next, calls = [(next, true)] /\ cb next = true)
    /\ (r = Err -> calls = [] \/ exists next, calls = [(next, false)] /\ cb next = false)
    /\ (forall next v, In (next, v) calls ->
          exists k ps sig,
            blob_parse K n blob = Ok k /\ params_of_bytes K n (k_params k) = Ok ps
            /\ hss_signature K n H ps (k_seed k) (k_counter k) msg = Ok sig
            /\ next = blob_of K (key_increment K n k ps) /\ v = cb next
            /\ length next = length blob).
  Proof.
    rewrite sign_core_eq.
    (* nothing prepared (the key does not load, or does not sign): no invocation, no signature *)
    destruct (sign_prepare blob msg) as [[sig next]| |] eqn:EP; cbn [ask];
      [|intros [= <- <-]; repeat split; try discriminate; auto; now intros ? ? []..].
    apply sign_prepare_Ok in EP as (k & ps & EL & ES & ->). apply load_key_Ok in EL as [EB EPb].
    assert (Hlen : length (blob_of K (key_increment K n k ps)) = length blob).
    { pose proof EB as B. apply blob_parse_Ok in B as (-> & Hp & Hs & _). now apply key_increment_length. }
    (* one invocation, on the successor key; accepted or rejected *)
    destruct (cb _) eqn:EC; intros [= <- <-]; cbn [length In]; repeat split; try lia; try discriminate.
    2, 4: (* what it was handed *) intros next v [[= <- <-]|[]]; exists k, ps, sig; now rewrite EC.
    - (* accepted: the signature is released *) intros s _. eauto.
    - (* rejected: an error *) intros _. eauto.
  Qed.
End SignCoreProofs.
