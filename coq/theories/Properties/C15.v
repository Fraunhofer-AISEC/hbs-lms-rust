(* C15 -- fast-verify signing yields ordinary valid signatures, touching only the trailer.
   Only statements; proofs in Proofs/FastVerifyProofs.v (the obligation [model_ok] on K_src: C01).
   The randomizer search is modelled by the n bytes [r] it leaves in the trailer; every theorem is
   for EVERY r, which covers every thread count, interleaving, RNG output and
   MAX_HASH_OPTIMIZATIONS setting.  Partial: scheduling itself is not modelled; the claim is that no
   schedule can matter beyond r. *)
From HbsLms Require Import Base.Bytes Model.Consts Model.Lmots Model.KeyBlob Model.Hss Model.SignCore
     Model.FastVerify.
From HbsLms Require Import Proofs.FastVerifyProofs Proofs.SignProofs Proofs.KeyBlobProofs
     Proofs.WinternitzDom Gen.Generated.
From HbsLms Require Import Properties.C01.

Local Open Scope N_scope.

(* signing a body followed by n zero bytes = ordinary signing of body || r; the buffer afterwards is
   body || r (unchanged if the key does not even load); callback protocol as for ordinary signing *)
Theorem C15_sign_mut_is_sign :
  forall (n : nat) (H : bytes -> bytes) (blob body r : bytes) (cb : bytes -> bool),
    body <> [] ->
    sign_mut K_src n H blob (body ++ repeat x00 n) r cb
    = (fst (sign_core K_src n H blob (body ++ r) cb), snd (sign_core K_src n H blob (body ++ r) cb),
       if key_loads K_src n blob then body ++ r else body ++ repeat x00 n).
Proof. apply sign_mut_wellformed. Qed.

(* hence the returned signature verifies for the returned message (with C01) *)
Theorem C15_signature_verifies_for_returned_message :
  forall (n : nat) (H : bytes -> bytes),
    In n hash_sizes -> (forall x, length (H x) = n) ->
    forall (ps : list param) (seed sk pk : bytes) (c : N) (body r : bytes) (cb : bytes -> bool)
           (sig : bytes) (calls : list (bytes * bool)) (msg' : bytes),
      Forall (fun p => In p (tbl_params K_src n)) ps -> length seed = n ->
      keygen K_src n H ps seed = Ok (sk, pk) ->
      c < 256 ^ N.of_nat (c_used_leafs_size K_src) ->
      body <> [] ->
      sign_mut K_src n H (with_counter K_src sk c) (body ++ repeat x00 n) r cb = (Ok sig, calls, msg') ->
      hss_verify K_src n H msg' sig pk = Ok tt /\ firstn (length body) msg' = body.
Proof.
  intros n H Hn HL ps seed sk pk c body r cb sig calls msg'.
  exact (sign_mut_then_verify K_src n H ps seed sk pk c body r cb sig calls msg' (model_ok_n n Hn) HL).
Qed.

(* too short, or a trailer that is not zero: refused, no callback, buffer untouched *)
Theorem C15_refused_without_consuming_a_leaf :
  forall (n : nat) (H : bytes -> bytes) (blob msg r : bytes) (cb : bytes -> bool),
    (length msg <= n)%nat \/ ((n < length msg)%nat /\ all_zero (skipn (length msg - n) msg) = false) ->
    sign_mut K_src n H blob msg r cb = (Err, [], msg).
Proof.
  intros n H blob msg r cb [Hs|[Hl Hz]].
  - now apply sign_mut_refuses_short.
  - now apply sign_mut_refuses_nonzero_trailer.
Qed.

(* the cost function of the search is total and equals the number of hash iterations a verifier
   saves: the sum of the chain positions (rows that follow Appendix B) *)
Theorem C15_cost_function :
  forall (n : nat) (prm : otsp) (Q : bytes),
    dom_ok n prm = true -> length Q = n ->
    fv_eval n prm Q = Ok (ots_hash_iterations n prm Q).
Proof. intros n prm Q OK HL. exact (fv_eval_spec n prm OK Q HL). Qed.

Print Assumptions C15_sign_mut_is_sign.
Print Assumptions C15_signature_verifies_for_returned_message.
Print Assumptions C15_refused_without_consuming_a_leaf.
Print Assumptions C15_cost_function.
