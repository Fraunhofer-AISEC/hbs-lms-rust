(* C05 -- a key signs exactly 2^(sum of heights) times, then is wiped and refuses.
   Proofs in Proofs/HistoryProofs.v and Proofs/SignCoreProofs.v; the obligations on K_src are those of
   C01 ([model_ok]) and C13 (the height bound). *)
From HbsLms Require Import Base.Bytes Model.Consts Model.Counter Model.KeyBlob Model.SignCore Model.History.
From HbsLms Require Import Proofs.SignCoreProofs Proofs.SignProofs Proofs.HistoryProofs Gen.Generated.
From HbsLms Require Import Properties.C03.
From HbsLms Require Properties.C01 Properties.C13.

Local Open Scope N_scope.

(* remaining lifetime after j released signatures = number of leaves - j; in particular a fresh
   key (j = 0) reports the product of its per-level tree sizes, and every released signature
   lowers the reported lifetime by exactly one *)
Theorem C05_lifetime_counts_down :
  forall (n : nat) (H : bytes -> bytes) (ps : list param) (seed pb : bytes) (j : N),
    In n hash_sizes -> (forall x, length (H x) = n) -> generated n ps seed pb ->
    j < total ps ->
    get_lifetime K_src n (blob_at K_src n ps seed pb j) = Ok (total ps - j).
Proof.
  intros n H ps seed pb j Hn HL [G1 G2 G3 G4 G5] Hj.
  pose proof (C01.model_ok_n n Hn) as OK. pose proof (fits ps G5) as FT.
  erewrite lifetime_at; try eassumption; [|exact C13.C13_source_heights_ok].
  f_equal. apply N.min_l. unfold total, u64_max in *.
  assert (2 ^ sumN (heights_of ps) <= 2 ^ 63) by (apply N.pow_le_mono_r; lia).
  lia.
Qed.

(* the signature that uses the last leaf hands the callback the wiped key: counter zero,
   parameter bytes 0xff, seed all zero, same length *)
Theorem C05_last_leaf_hands_over_wiped_key :
  forall (n : nat) (H : bytes -> bytes) (ps : list param) (seed pb msg : bytes) (cb : bytes -> bool),
    In n hash_sizes -> (forall x, length (H x) = n) -> generated n ps seed pb ->
    let last := total ps - 1 in
    let wiped_blob := be (c_used_leafs_size K_src) 0 ++ repeat xff (c_ref_levels K_src) ++ repeat x00 n in
    snd (sign_core K_src n H (blob_at K_src n ps seed pb last) msg cb) = [(wiped_blob, cb wiped_blob)]
    /\ length wiped_blob = length (blob_at K_src n ps seed pb last).
Proof.
  intros n H ps seed pb msg cb Hn HL [G1 G2 G3 G4 G5].
  exact (sign_last K_src n (C01.model_ok_n n Hn) H HL ps seed pb G1 G2 G3 G4 G5 (fits ps G5) msg cb).
Qed.

(* from then on signing fails without invoking the callback or releasing anything, and lifetime
   queries fail *)
Theorem C05_wiped_key_refuses :
  forall (n : nat) (H : bytes -> bytes) (msg : bytes) (cb : bytes -> bool),
    In n hash_sizes ->
    let wiped_blob := be (c_used_leafs_size K_src) 0 ++ repeat xff (c_ref_levels K_src) ++ repeat x00 n in
    sign_core K_src n H wiped_blob msg cb = (Err, [])
    /\ get_lifetime K_src n wiped_blob = Err.
Proof.
  intros n H msg cb Hn wiped_blob. pose proof (C01.model_ok_n n Hn) as OK.
  split; [apply sign_core_wiped|apply get_lifetime_wiped]; exact (ok_pack K_src n OK).
Qed.

(* exactly [total] signatures over any history: C03_history bounds the number of released
   signatures by the number of leaves, and a history of [total] accepted signing calls releases
   that many *)
Theorem C05_never_more_than_total :
  forall (n : nat) (H : bytes -> bytes) (ps : list param) (seed pb : bytes) (ops : list op),
    In n hash_sizes -> (forall x, length (H x) = n) -> generated n ps seed pb ->
    N.of_nat (length (snd (run K_src n H ops (blob_at K_src n ps seed pb 0)))) <= total ps.
Proof.
  intros n H ps seed pb ops Hn HL G.
  destruct (C03_history n H ps seed pb ops Hn HL G) as [msgs [E L]].
  rewrite E. cbn [snd]. rewrite map_length, combine_length, seq_length, Nat.min_id. exact L.
Qed.

Print Assumptions C05_lifetime_counts_down.
Print Assumptions C05_last_leaf_hands_over_wiped_key.
Print Assumptions C05_wiped_key_refuses.
Print Assumptions C05_never_more_than_total.
