(* Totality of the signer-side entry points on arbitrary inputs (C11). *)
From HbsLms Require Import Base.Bytes Model.Consts Model.KeyBlob Model.Derive Model.Hss Model.SignCore.
From HbsLms Require Import Proofs.CounterProofs Proofs.KeyBlobProofs Proofs.SignCoreProofs.

Local Open Scope N_scope.

Section Total.
  Variable K : consts.
  Variable n : nat.
  Variable H : bytes -> bytes.

  Lemma hss_signature_total ps seed c msg : hss_signature K n H ps seed c msg <> Panic.
  Proof.
    unfold hss_signature. destruct (combine ps _) as [|[p0 q0] below]; [discriminate|].
    destruct (root_seed_I _ _ _) as [s0 I0].
    destruct (expand K n H s0 I0 p0 q0 below) as [spks [[[bseed bI] bp] bq]]. discriminate.
  Qed.

  Lemma hss_public_key_total ps seed : hss_public_key K n H ps seed <> Panic.
  Proof. destruct ps; discriminate. Qed.

  Hint Resolve hss_signature_total hss_public_key_total : total.

  Lemma sign_prepare_total blob msg : sign_prepare K n H blob msg <> Panic.
  Proof. repeat bind_total. discriminate. Qed.

  Theorem sign_core_total blob msg cb : fst (sign_core K n H blob msg cb) <> Panic.
  Proof. rewrite sign_core_eq. apply ask_total, sign_prepare_total. Qed.

  Theorem keygen_total ps seed : keygen K n H ps seed <> Panic.
  Proof.
    repeat bind_total. destruct (Nat.ltb _ _); [discriminate|]. now destruct (Nat.ltb _ _).
  Qed.

  (* table side condition for the lifetime arithmetic: every decodable height is below 64 *)
  Definition heights_ok : bool :=
    forallb (fun row : N * (N * N) => snd (snd row) <=? 63) (c_lms_construct K).

  Hypothesis HO : heights_ok = true.

  Lemma lms_height_ok code lp : lms_of_u32 K code = Some lp -> N.of_nat (l_h lp) <= 63.
  Proof.
    unfold lms_of_u32, lms_construct. destruct (assoc code (c_lms_from_u32 K)) as [v|]; [|discriminate].
    destruct (assoc v (c_lms_construct K)) as [[ty h]|] eqn:A; [|discriminate]. intros [= <-].
    apply assoc_In in A. unfold heights_ok in HO. rewrite forallb_forall in HO.
    specialize (HO _ A). cbn [snd l_h] in *. apply N.leb_le in HO. lia.
  Qed.

  Lemma params_of_bytes_heights bs ps :
    params_of_bytes K n bs = Ok ps -> Forall (fun h => h <= 63) (heights_of ps).
  Proof.
    intros E. apply params_of_bytes_Ok in E as [E _]. apply Forall_map. revert E.
    apply params_decode_Forall. intros b i o l _ EL _. exact (lms_height_ok _ _ EL).
  Qed.

  Theorem get_lifetime_total key : get_lifetime K n key <> Panic.
  Proof.
    rewrite get_lifetime_eq. pose proof (load_key_total K n key).
    destruct (load_key K n key) as [[k ps]| |] eqn:E; cbn [bind]; [|discriminate|congruence].
    apply load_key_Ok in E as [_ E]. rewrite lifetime_closed; [discriminate| |exact (params_of_bytes_heights _ _ E)].
    apply params_of_bytes_Ok in E as [_ E]. now destruct ps.
  Qed.
End Total.

#[export] Hint Resolve hss_signature_total hss_public_key_total sign_prepare_total : total.
