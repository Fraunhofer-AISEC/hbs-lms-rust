(* C15: fast-verify signing is ordinary signing of the message with the chosen trailer, and the cost
   function of the search is the sum of the chain positions. *)
From HbsLms Require Import Base.Bytes Model.Consts Model.Winternitz Model.Lmots Model.Counter Model.KeyBlob
     Model.Hss Model.SignCore Model.FastVerify.
From HbsLms Require Import Proofs.CounterProofs Proofs.WinternitzProofs Proofs.WinternitzDom
     Proofs.KeyBlobProofs Proofs.SignCoreProofs Proofs.SignProofs.

Local Open Scope N_scope.

Section FastVerifyProofs.
  Variable K : consts.
  Variable n : nat.
  Variable H : bytes -> bytes.

  Lemma key_loads_eq blob : key_loads K n blob = is_ok (load_key K n blob).
  Proof.
    unfold key_loads, load_key. destruct (blob_parse K n blob) as [k| |]; try reflexivity. cbn [bind].
    now destruct (params_of_bytes K n (k_params k)).
  Qed.

  (* a well-formed input: non-empty body followed by n zero bytes; r is whatever the search chose *)
  Theorem sign_mut_wellformed blob body r cb :
    body <> [] ->
    sign_mut K n H blob (body ++ repeat x00 n) r cb
    = (fst (sign_core K n H blob (body ++ r) cb), snd (sign_core K n H blob (body ++ r) cb),
       if key_loads K n blob then body ++ r else body ++ repeat x00 n).
  Proof.
    intros Hb. unfold sign_mut. rewrite app_length, repeat_length.
    assert (Hl : (0 < length body)%nat) by (destruct body; [congruence|cbn; lia]).
    replace (Nat.leb (length body + n) n) with false by (symmetry; apply Nat.leb_gt; lia).
    rewrite firstn_app_exact, skipn_app_exact, all_zero_repeat by lia. cbn [negb].
    now destruct (sign_core K n H blob (body ++ r) cb).
  Qed.

  Theorem sign_mut_refuses_short blob msg r cb :
    (length msg <= n)%nat -> sign_mut K n H blob msg r cb = (Err, [], msg).
  Proof. intros Hl. unfold sign_mut. now rewrite (proj2 (Nat.leb_le _ _) Hl). Qed.

  Theorem sign_mut_refuses_nonzero_trailer blob msg r cb :
    (n < length msg)%nat -> all_zero (skipn (length msg - n) msg) = false ->
    sign_mut K n H blob msg r cb = (Err, [], msg).
  Proof. intros Hl Hz. unfold sign_mut. rewrite Hz. now destruct (Nat.leb _ _). Qed.

  (* C04 for this entry point: the callback protocol of [sign_core], and a message that is refused
     never reaches the callback *)
  Theorem sign_mut_effects blob msg r cb res calls msg' :
    sign_mut K n H blob msg r cb = (res, calls, msg') ->
    (length calls <= 1)%nat
    /\ (forall sig, res = Ok sig -> exists next, calls = [(next, true)] /\ cb next = true)
    /\ (res = Err -> calls = [] \/ exists next, calls = [(next, false)] /\ cb next = false)
    /\ ((length msg <= n)%nat \/ all_zero (skipn (length msg - n) msg) = false ->
        res = Err /\ calls = [] /\ msg' = msg).
  Proof.
    unfold sign_mut. destruct (Nat.leb_spec (length msg) n) as [Hs|Hl];
      [|destruct (all_zero _); cbn [negb]].
    1, 3: intros [= <- <- <-]; repeat split; try discriminate; auto.
    destruct (sign_core K n H blob _ cb) as [rs cl] eqn:ES. intros [= <- <- _].
    destruct (sign_core_effects K n H blob _ cb rs cl ES) as (A & B & C & _).
    repeat (split; [assumption|]). intros [?|?]; [lia|congruence].
  Qed.

  Theorem sign_mut_touches_only_trailer blob body r cb res calls msg' :
    body <> [] -> length r = n ->
    sign_mut K n H blob (body ++ repeat x00 n) r cb = (res, calls, msg') ->
    firstn (length body) msg' = body /\ length msg' = (length body + n)%nat.
  Proof.
    intros Hb Lr E. rewrite sign_mut_wellformed in E by assumption.
    injection E as _ _ <-. destruct (key_loads K n blob).
    - now rewrite firstn_app_exact, app_length, Lr.
    - now rewrite firstn_app_exact, app_length, repeat_length.
  Qed.

  (* C15: the signature released for a generated key verifies for the message as it is returned *)
  Theorem sign_mut_then_verify ps seed sk pk c body r cb sig calls msg' :
    model_ok K n = true -> (forall x, length (H x) = n) ->
    Forall (fun p => In p (tbl_params K n)) ps -> length seed = n ->
    keygen K n H ps seed = Ok (sk, pk) ->
    c < 256 ^ N.of_nat (c_used_leafs_size K) ->
    body <> [] ->
    sign_mut K n H (with_counter K sk c) (body ++ repeat x00 n) r cb = (Ok sig, calls, msg') ->
    hss_verify K n H msg' sig pk = Ok tt /\ firstn (length body) msg' = body.
  Proof.
    intros OK HL F Ls Ek Hc Hb E. rewrite sign_mut_wellformed in E by assumption.
    destruct (sign_core K n H (with_counter K sk c) (body ++ r) cb) as [res cl] eqn:ES.
    injection E as -> -> <-. pose proof ES as L.
    (* a key that signs loads *)
    apply sign_core_Ok in L as (next & L & _). apply sign_prepare_Ok in L as (k & ps' & L & _).
    rewrite key_loads_eq, L. split; [|now apply firstn_app_exact].
    exact (sign_then_verify K n OK H HL ps seed sk pk c (body ++ r) cb sig calls F Ls Ek Hc ES).
  Qed.
End FastVerifyProofs.

(* the second loop of fast_verify_eval: as long as every index lands in the checksum bytes [cs],
   it adds up digits of Q ++ cs *)
Lemma fv_eval_loop n w (Q cs : bytes) l a :
  length Q = n ->
  Forall (fun i => (n <= coef_index i w < n + length cs)%nat) l ->
  fold_left (fun acc i =>
               do a0 <- acc;
               if Nat.ltb (coef_index i w) n then Panic
               else match nth_error cs (coef_index i w - n) with
                    | None => Panic
                    | Some b => Ok (a0 + N.land (N.shiftr (b2n b) (coef_shift i w)) (coef_mask w))
                    end) l (Ok a)
  = Ok (a + sumN (map (fun i => coef (Q ++ cs) i w) l)).
Proof.
  intros Hl F. revert a. induction F as [|i l [I1 I2] _ IH]; intros a; cbn [map fold_left bind].
  - now rewrite N.add_0_r.
  - replace (Nat.ltb (coef_index i w) n) with false by (symmetry; apply Nat.ltb_ge; exact I1).
    rewrite (nth_error_nth' cs x00) by lia. rewrite IH, sumN_cons, N.add_assoc.
    unfold coef at 2. now rewrite app_nth2, Hl by lia.
Qed.

(* Only the index ranges matter: the shift [o_ls prm] may be any, so this covers the rows whose shift
   deviates from Appendix B as well. *)
Theorem fv_eval_sum n prm Q :
  wok (o_w prm) -> (n * dn (o_w prm) <= o_p prm <= (n + 2) * dn (o_w prm))%nat -> length Q = n ->
  fv_eval n prm Q = Ok (ots_hash_iterations n prm Q).
Proof.
  intros Hw [Hup Hp] Hl. set (w := o_w prm) in *. set (u := (n * dn w)%nat) in *.
  set (S' := Q ++ be 2 (checksum n prm Q)).
  (* the first u digits lie in Q *)
  assert (EQ : map (fun i => coef S' i w) (nrange u) = map (fun i => coef Q i w) (nrange u)).
  { apply map_ext_in. intros i Hi. apply nrange_In in Hi.
    apply coef_app_l, coef_index_lt; [assumption|now rewrite Hl]. }
  (* so the sum of all digits falls into the sum over Q and the sum over the checksum digits *)
  unfold ots_hash_iterations, digits. rewrite fold_add_N, N.add_0_l, append_checksum_be. fold S' w.
  replace (o_p prm) with (u + (o_p prm - u))%nat at 1 by lia.
  rewrite nrange_app, map_app, sumN_app, EQ.
  (* the first loop computes the former, and from it the checksum; the second adds the latter *)
  unfold fv_eval. fold w. rewrite dn_mul by assumption. fold u.
  rewrite (fold_add_sum (fun i => coef Q i w)), N.add_0_l.
  replace (N.of_nat u * coef_mask w - sumN (map (fun i => coef Q i w) (nrange u))) with (cksm_sum n w Q)
    by (pose proof (cksm_sum_defect n w Q Hw); unfold u; lia).
  rewrite <- be2_spec.
  apply (fv_eval_loop n w Q); [assumption|].
  apply Forall_forall. intros i Hi. apply in_map_iff in Hi. destruct Hi as [k [<- Hk]].
  apply nrange_In in Hk. rewrite be_length. split.
  - apply coef_index_ge; [assumption|fold u; lia].
  - apply coef_index_lt; [assumption|lia].
Qed.

Theorem fv_eval_spec n prm :
  dom_ok n prm = true -> forall Q, length Q = n -> fv_eval n prm Q = Ok (ots_hash_iterations n prm Q).
Proof.
  intros OK Q Hl. pose proof (ok_up n prm OK). pose proof (v_le n prm OK).
  apply fv_eval_sum; [apply (ok_w n prm OK)|lia|assumption].
Qed.
