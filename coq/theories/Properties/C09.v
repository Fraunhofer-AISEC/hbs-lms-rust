(* C09 -- key generation and signing are pure functions of their inputs.
   In Gallina every definition is a function, so "same inputs, same outputs" holds of the model by
   construction: [keygen K n H ps seed] and [sign_core K n H blob msg cb] have no other arguments.
   What has content is (1) that all entry points are the same function, (2) that a reloaded key
   continues exactly like the key that stayed in memory, and (3) that the SOURCE has nothing an
   interleaving, an earlier call or another thread could act on: the translator's audit of the
   current source finds no static, thread-local, interior mutability, RNG, clock, environment or
   file access outside cfg(feature = "fast_verify"), and the crate forbids unsafe code.
   (Thread schedules themselves are runtime behaviour; they are exercised by the harness.) *)
From HbsLms Require Import Base.Bytes Model.Consts Model.KeyBlob Model.SignCore Model.History.
From HbsLms Require Import Proofs.KeyBlobProofs Proofs.SignCoreProofs Gen.Generated.

Local Open Scope N_scope.

(* (3) audit of the current source, regenerated on every run *)
Theorem C09_no_ambient_state : src_ambient = [] /\ src_forbid_unsafe = true.
Proof. split; reflexivity. Qed.

(* (3') the in-memory keys carry no state beyond their bytes: the fields of SigningKey and
   VerifyingKey in the struct table of the current source are the key bytes and a marker, so that
   [try_sign] can only be a function of those bytes (as [signing_key_try_sign] models it) *)
Definition key_object_fields (name : String.string) : option (list String.string) :=
  match find (fun st => String.eqb (fst (fst st)) name) src_structs with
  | Some st => Some (map (fun f => fst (fst f)) (snd st))
  | None => None
  end.

Theorem C09_key_objects_are_their_bytes :
  key_object_fields "SigningKey"%string = Some ["bytes"%string; "phantom_data"%string]
  /\ key_object_fields "VerifyingKey"%string = Some ["bytes"%string; "phantom_data"%string].
Proof. split; reflexivity. Qed.

(* (1) the in-memory signing key is the byte-level function with the storing callback *)
Theorem C09_entry_points_agree :
  forall (n : nat) (H : bytes -> bytes) (key msg : bytes),
    fst (signing_key_try_sign K_src n H key msg) = fst (sign_core K_src n H key msg (fun _ => true))
    /\ (forall sig, fst (sign_core K_src n H key msg (fun _ => true)) = Ok sig ->
        snd (sign_core K_src n H key msg (fun _ => true)) = [(snd (signing_key_try_sign K_src n H key msg), true)]).
Proof.
  intros n H key msg. unfold signing_key_try_sign. rewrite sign_core_eq.
  destruct (sign_prepare K_src n H key msg) as [[sig next]| |]; cbn [ask fst snd]; split;
    reflexivity || discriminate.
Qed.

(* the result of signing does not depend on the callback except through its verdict *)
Theorem C09_callback_only_verdict :
  forall (n : nat) (H : bytes -> bytes) (blob msg : bytes) (cb1 cb2 : bytes -> bool),
    (forall b, cb1 b = cb2 b) ->
    sign_core K_src n H blob msg cb1 = sign_core K_src n H blob msg cb2.
Proof.
  intros n H blob msg cb1 cb2 E. rewrite !sign_core_eq.
  destruct (sign_prepare K_src n H blob msg) as [[sig next]| |]; cbn [ask]; now rewrite ?E.
Qed.

(* (2) reloading the persisted key at any point of a history changes nothing: storage holds the
   complete state *)
Theorem C09_reload_is_invisible :
  forall (n : nat) (H : bytes -> bytes) (ops1 ops2 : list op) (blob : bytes),
    run K_src n H (ops1 ++ OReload :: ops2) blob = run K_src n H (ops1 ++ ops2) blob.
Proof.
  intros n H ops1 ops2; induction ops1 as [|o r IH]; intros blob.
  - cbn [app run step]. destruct (run K_src n H ops2 blob). reflexivity.
  - cbn [app run]. destruct (step K_src n H blob o) as [b' rel]. now rewrite IH.
Qed.

(* serialising and re-parsing a private key is the identity (what "reload" relies on) *)
Theorem C09_blob_roundtrip :
  forall (n : nat) (k : rfc_key),
    length (k_params k) = c_ref_levels K_src -> length (k_seed k) = n ->
    k_counter k < 256 ^ N.of_nat (c_used_leafs_size K_src) ->
    blob_parse K_src n (blob_of K_src k) = Ok k.
Proof. apply blob_parse_of. Qed.

Print Assumptions C09_no_ambient_state.
Print Assumptions C09_key_objects_are_their_bytes.
Print Assumptions C09_entry_points_agree.
Print Assumptions C09_callback_only_verdict.
Print Assumptions C09_reload_is_invisible.
Print Assumptions C09_blob_roundtrip.
