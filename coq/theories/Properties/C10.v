(* C10 -- auxiliary data is a transparent, authenticated cache and nothing more.
   The proofs are in Proofs/AuxProofs.v (cache, key generation), Proofs/AuxSignProofs.v (signing) and
   Proofs/AuxTotal.v (side premises); the two facts about a buffer that is not yet in use
   (its contents are never read, it only shrinks) are read off the model here.

   Theorems (every hash function, every tree height, every buffer):
     - going through a cache in which every non-empty slot holds the true tree node returns the
       true node and leaves the cache in that state (induction over the tree);
     - a buffer that is not yet in use (first byte 0) is cleared before it is used, and a cleared
       cache is such a cache -- so arbitrary contents behind a zero first byte are never read;
     - with a view that is absent (empty buffer, header too short, level word announcing more than
       the buffer holds, MAC mismatch) or good, key generation returns exactly the key pair it
       returns without auxiliary data.
   For a buffer whose MAC verifies, "good" is the statement "MAC accepted => the cached nodes are
   this tree's nodes": MAC unforgeability, an explicit hypothesis.  KNOWN FINDING: the MAC key is
   derived from the seed alone, so a library-written buffer for the same seed and another top-tree
   shape verifies although it is not good (known_findings.json, C10 aux-mac-other-shape).
   The byte layout written by key generation (level word, cached levels, MAC) and the behaviour of
   signing with a buffer are tied to the code by the correspondence (buffer contents and length
   after every call are compared). *)
From HbsLms Require Import Base.Bytes Model.Consts Model.Lms Model.Derive Model.KeyBlob Model.Hss Model.SignCore
     Model.Aux.
From HbsLms Require Model.HashInputs.
From HbsLms Require Import Proofs.HssComplete Proofs.AuxProofs Proofs.AuxSignProofs Proofs.AuxTotal Gen.Generated.
From HbsLms Require Properties.C01 Properties.C11.

Local Open Scope N_scope.

Theorem C10_cache_is_transparent :
  forall (n : nat) (H : bytes -> bytes) (h : nat) (I seed : bytes) (prm : otsp) (d : nat) (r : N) (e : expanded),
    (forall x, length (H x) = n) ->
    1 <= r -> (node_level r + d = h)%nat -> wf_exp n e -> cache_ok K_src n H h I seed prm e ->
    fst (tree_aux K_src n H h I seed prm d r e) = tree K_src n H h I seed prm d r
    /\ wf_exp n (snd (tree_aux K_src n H h I seed prm d r e))
    /\ cache_ok K_src n H h I seed prm (snd (tree_aux K_src n H h I seed prm d r e)).
Proof. intros n H h I seed prm d r e HL. exact (tree_aux_correct K_src n H HL h I seed prm d r e). Qed.

Theorem C10_cleared_cache_is_good :
  forall (n : nat) (H : bytes -> bytes) (h : nat) (I seed : bytes) (prm : otsp) (lvl : N) (hm : bytes),
    let e := {| ax_level := lvl;
                ax_layers := map (fun s : nat * N => (fst s, repeat x00 (N.to_nat (snd s)))) (layer_sizes K_src n lvl);
                ax_hmac := hm |} in
    wf_exp n e /\ cache_ok K_src n H h I seed prm e.
Proof. intros n H h I seed prm lvl hm. exact (zero_cache_good K_src n H h I seed prm lvl hm). Qed.

(* a buffer that is not in use is replaced by zeros before anything is read from it: the view
   does not depend on the bytes behind the first one *)
Theorem C10_unused_buffer_contents_are_never_read :
  forall (n : nat) (H : bytes -> bytes) (seed : bytes) (h0 : nat) (b0 : byte) (rest1 rest2 : bytes),
    b2n b0 = c_no_aux_data K_src -> length rest1 = length rest2 ->
    get_expanded K_src n H (b0 :: rest1) seed h0 = get_expanded K_src n H (b0 :: rest2) seed h0.
Proof.
  intros n H seed h0 b0 rest1 rest2 E L. unfold get_expanded. rewrite E. cbn [negb length].
  now rewrite L.
Qed.

Theorem C10_empty_buffer_is_ignored :
  forall (n : nat) (H : bytes -> bytes) (seed : bytes) (h0 : nat),
    get_expanded K_src n H [] seed h0 = Ok (None, []).
Proof. reflexivity. Qed.

(* key generation with a buffer = key generation without, whenever the view is absent or good *)
Theorem C10_keygen_same_key_pair :
  forall (n : nat) (H : bytes -> bytes) (ps : list param) (seed aux : bytes),
    (forall x, length (H x) = n) ->
    (forall k p0 rest oe aux1,
        key_generate K_src ps seed = Ok k -> params_of_bytes K_src n (k_params k) = Ok (p0 :: rest) ->
        get_expanded K_src n H aux seed (l_h (snd p0)) = Ok (oe, aux1) ->
        good_view K_src n H (l_h (snd p0)) (snd (root_seed_I K_src H seed)) (fst (root_seed_I K_src H seed)) (fst p0) oe) ->
    match keygen_aux K_src n H ps seed aux with
    | Ok (sk, pk, _) => keygen K_src n H ps seed = Ok (sk, pk)
    | Err => keygen K_src n H ps seed = Err
             \/ exists k p0 rest, key_generate K_src ps seed = Ok k /\ params_of_bytes K_src n (k_params k) = Ok (p0 :: rest)
                                  /\ get_expanded K_src n H aux seed (l_h (snd p0)) = Err
    | Panic => exists k p0 rest, key_generate K_src ps seed = Ok k /\ params_of_bytes K_src n (k_params k) = Ok (p0 :: rest)
                                 /\ get_expanded K_src n H aux seed (l_h (snd p0)) = Panic
    end.
Proof. intros n H ps seed aux HL. exact (keygen_aux_same K_src n H HL ps seed aux). Qed.

(* the buffer is never enlarged: the fresh path shrinks it to the used length *)
Theorem C10_buffer_only_shrinks :
  forall (n max_length h0 : nat), (1 <= max_length)%nat -> (aux_data_len K_src n max_length h0 <= max_length)%nat.
Proof.
  intros n max_length h0 Hm. unfold aux_data_len, optimal_aux.
  destruct (Nat.ltb max_length (c_aux_data_hashes K_src + n)); [exact Hm|].
  destruct (pick_levels n _ _) as [chosen rem]. destruct (level_word chosen =? 0); lia.
Qed.

(* the hash preimage layouts of the source are those the model writes down: see C07 *)
Theorem C10_hash_input_layouts : src_hash_inputs = HashInputs.model_hash_inputs.
Proof. reflexivity. Qed.

Print Assumptions C10_hash_input_layouts.
Print Assumptions C10_cache_is_transparent.
Print Assumptions C10_cleared_cache_is_good.
Print Assumptions C10_unused_buffer_contents_are_never_read.
Print Assumptions C10_keygen_same_key_pair.
Print Assumptions C10_buffer_only_shrinks.

(* signing with a buffer = signing without: same result, same callback record, whenever the view is
   absent or good *)
Theorem C10_sign_same_signature :
  forall (n : nat) (H : bytes -> bytes) (blob msg aux : bytes) (cb : bytes -> bool),
    (forall x, length (H x) = n) ->
    (forall k p0 r oe aux1,
        blob_parse K_src n blob = Ok k -> params_of_bytes K_src n (k_params k) = Ok (p0 :: r) ->
        get_expanded K_src n H aux (k_seed k) (l_h (snd p0)) = Ok (oe, aux1) ->
        Forall (wf_param K_src n) (p0 :: r)
        /\ good_view K_src n H (l_h (snd p0)) (snd (root_seed_I K_src H (k_seed k)))
                     (fst (root_seed_I K_src H (k_seed k))) (fst p0) oe) ->
    (forall k p0 r, blob_parse K_src n blob = Ok k -> params_of_bytes K_src n (k_params k) = Ok (p0 :: r) ->
                    exists oe aux1, get_expanded K_src n H aux (k_seed k) (l_h (snd p0)) = Ok (oe, aux1)) ->
    let '(r, calls, _) := sign_core_aux K_src n H blob msg aux cb in
    (r, calls) = sign_core K_src n H blob msg cb.
Proof. intros n H blob msg aux cb HL. exact (sign_core_aux_same K_src n H HL blob msg aux cb). Qed.

Print Assumptions C10_sign_same_signature.

Definition hash_sizes : list nat := [16%nat; 24%nat; 32%nat].

(* the same with the side premises discharged: decoded parameter bytes are well-formed rows
   and the view of ANY buffer exists (Proofs/AuxTotal.v); what remains is "the view is absent or
   good", i.e. for a MAC-accepted buffer the unforgeability hypothesis *)
Theorem C10_sign_same_signature_any_buffer :
  forall (n : nat) (H : bytes -> bytes) (blob msg aux : bytes) (cb : bytes -> bool),
    In n hash_sizes -> (forall x, length (H x) = n) ->
    (forall k p0 r oe aux1,
        blob_parse K_src n blob = Ok k -> params_of_bytes K_src n (k_params k) = Ok (p0 :: r) ->
        get_expanded K_src n H aux (k_seed k) (l_h (snd p0)) = Ok (oe, aux1) ->
        good_view K_src n H (l_h (snd p0)) (snd (root_seed_I K_src H (k_seed k)))
                  (fst (root_seed_I K_src H (k_seed k))) (fst p0) oe) ->
    let '(r, calls, _) := sign_core_aux K_src n H blob msg aux cb in
    (r, calls) = sign_core K_src n H blob msg cb.
Proof.
  intros n H blob msg aux cb Hn HL.
  exact (sign_core_aux_same_strong K_src n H HL (C01.model_ok_n n Hn) C11.source_aux_consts_ok blob msg aux cb).
Qed.

Print Assumptions C10_sign_same_signature_any_buffer.
