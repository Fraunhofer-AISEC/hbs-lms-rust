(* Slicing lemmas for the RFC transcription's [sub S a b] (bytes a .. b-1 of S). *)
From HbsLms Require Import Base.Bytes Spec.Rfc8554.

Lemma sub_length (S : bytes) a b : (a <= b)%nat -> (b <= length S)%nat -> length (sub S a b) = (b - a)%nat.
Proof. intros H1 H2. unfold sub. rewrite firstn_length, skipn_length. lia. Qed.

Lemma sub_app_r (x r : bytes) a b :
  (length x <= a)%nat -> sub (x ++ r) a b = sub r (a - length x) (b - length x).
Proof.
  intros H. unfold sub. rewrite skipn_app, skipn_all2 by lia.
  f_equal. lia.
Qed.

Lemma sub_app_l (x r : bytes) a b :
  (b <= length x)%nat -> sub (x ++ r) a b = sub x a b.
Proof.
  intros H. unfold sub. rewrite skipn_app.
  destruct (Nat.le_gt_cases a (length x)) as [Ha|Ha].
  - rewrite firstn_app, skipn_length. replace (b - a - (length x - a))%nat with 0%nat by lia.
    now rewrite app_nil_r.
  - replace (b - a)%nat with 0%nat by lia. reflexivity.
Qed.

(* the bounds are premises, since after [sub_app_r] they arrive as differences *)
Lemma sub_piece (x r : bytes) a b : a = 0%nat -> b = length x -> sub (x ++ r) a b = x.
Proof.
  intros -> ->. unfold sub. cbn [skipn]. rewrite Nat.sub_0_r, firstn_app, Nat.sub_diag, firstn_all.
  apply app_nil_r.
Qed.

(* a slice that is one of the pieces of a right-nested concatenation: pass the pieces that end
   before it ([sub_app_r]), then take the piece it meets ([sub_piece]).  Lengths of variables
   are taken from the context.  (The obvious way, the two lemmas as a [Hint Rewrite] set for
   [autorewrite], is slow to check.) *)
Ltac read_piece := rewrite ?sub_app_r, sub_piece by (rewrite ?be_length; lia).

Lemma sub_all (x : bytes) a b : a = 0%nat -> b = length x -> sub x a b = x.
Proof. intros -> ->. pose proof (sub_piece x [] 0 _ eq_refl eq_refl) as E. now rewrite app_nil_r in E. Qed.

Lemma sub_concat_nth n (xs : list bytes) (r : bytes) i a b :
  Forall (fun x => length x = n) xs -> (i < length xs)%nat -> a = (n * i)%nat -> b = (n * (i + 1))%nat ->
  sub (concat xs ++ r) a b = nth i xs [].
Proof.
  intros F Hi -> ->. revert i Hi; induction F as [|x xs Hx F IH]; intros i Hi; [cbn in Hi; lia|].
  subst n. cbn [concat]. rewrite <- app_assoc. destruct i as [|i]; cbn [nth].
  - apply sub_piece; [apply Nat.mul_0_r|apply Nat.mul_1_r].
  - rewrite sub_app_r, <- (IH i) by (cbn [length] in Hi; nia). f_equal; nia.
Qed.

Lemma skipn_sub (S : bytes) a b : (a <= b <= length S)%nat -> skipn a S = sub S a b ++ skipn b S.
Proof.
  intros Hab. unfold sub. rewrite <- (firstn_skipn (b - a) (skipn a S)) at 1.
  rewrite skipn_skipn. do 2 f_equal. lia.
Qed.

Lemma split_at (S : bytes) k : (k <= length S)%nat -> S = sub S 0 k ++ skipn k S /\ length (sub S 0 k) = k.
Proof. split; [apply (skipn_sub S 0 k)|rewrite sub_length]; lia. Qed.
